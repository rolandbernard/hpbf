(** * C04 — the in-place interpreter implements canonical Brainfuck. *)
From Coq Require Import ZArith List.
From HPBF Require Import IO BF Machines Inplace InplaceProofs.
Import ListNotations.

(** For every width, environment and balanced source text: the in-place machine halts (normally
    or stopped by an I/O failure) iff the canonical machine does, and then with the same tape,
    pointer and complete I/O event log. *)
Theorem C04_inplace_canonical : forall w e src p, ast_of_source src = Some p ->
  let c0 := {| c_ctl := p; c_kont := []; c_st := bf0 |} in
  (forall m, halted (ip_run w e false 0 m src) -> exists n, same_result (bf_steps w e n c0) (ip_run w e false 0 m src))
  /\ (forall n, halted (bf_steps w e n c0) -> exists m, same_result (bf_steps w e n c0) (ip_run w e false 0 m src)).
Proof. exact inplace_canonical. Qed.

(** While it runs, the in-place machine's state (hence its event log) is always the state of the
    canonical machine after at most as many steps: its partial traces are canonical partial traces. *)
Theorem C04_inplace_prefix : forall w e total m c rest i, rel c rest i ->
  (exists n c' rest' i', (n <= m)%nat /\ bf_cfg_after w e n c = Some c' /\ rel c' rest' i' /\
        ip_exec w e false total m rest i = OutOfFuel i')
  \/ halted (ip_exec w e false total m rest i).
Proof. exact inplace_prefix. Qed.

(** the forward scan over a skipped loop stops exactly after the matching ']' *)
Theorem C04_scan_skips_matching : forall r body r2, parses r body (ch_close :: r2) -> ip_scan r O = r2.
Proof. exact scan_skips_matching. Qed.

(** on any byte string every step is defined; the only error is an unopened ']' *)
Theorem C04_inplace_total : forall w e total rest s,
  match ip_step w e total rest s with
  | inr (Errored _ _) => exists r, rest = ch_close :: r /\ ip_stack s = []
  | inr (OutOfFuel _) | inr (Interrupted _) => False
  | _ => True
  end.
Proof. exact inplace_total. Qed.

Example C04_nonvacuous :
  ast_of_source [43; 43; 91; 62; 43; 120; 60; 45; 93; 62; 46] = Some [Inc; Inc; Loop [Right; Inc; Left; Dec]; Right; Out].
Proof. vm_compute. reflexivity. Qed.

Print Assumptions C04_inplace_canonical.
Print Assumptions C04_inplace_prefix.
Print Assumptions C04_scan_skips_matching.
Print Assumptions C04_inplace_total.
