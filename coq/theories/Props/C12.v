(** * C12 — the parser accepts exactly balanced programs and ignores non-command text. *)
From Coq Require Import ZArith List Bool.
From HPBF Require Import BF IR Parse ParseProofs.
Import ListNotations.
Open Scope Z_scope.

(** acceptance: for every width and every string of scalar values *)
Theorem C12_parse_accepts_iff : forall w cs, (exists b, parse w cs = POk b) <-> balanced cs = true.
Proof. exact parse_accepts_iff. Qed.

(** error kind and (character) position: [scan] is the specification — a stack of '[' positions;
    an unmatched ']' is reported where it stands, otherwise the innermost unclosed '[' *)
Theorem C12_parse_verdict : forall w cs, verdict (parse w cs) = scan cs 0 [].
Proof. exact parse_verdict. Qed.

(** inserting or deleting non-command characters changes neither acceptance, nor the error kind,
    nor the IR *)
Theorem C12_comment_insensitive : forall w cs, shape (parse w cs) = shape (parse w (filter is_cmd cs)).
Proof. exact parse_comment_insensitive. Qed.

(** bytes of multi-byte UTF-8 sequences (all >= 0x80) are never commands *)
Theorem C12_noncmd_above_ascii : forall c, 128 <= c -> is_cmd c = false.
Proof. exact noncmd_above_ascii. Qed.

Example C12_nonvacuous :
  verdict (parse 8 [43; 91; 8364; 93; 93; 91]) = Some (LoopNotOpened, 4) /\
  verdict (parse 8 [91; 43; 91; 45; 93; 128512]) = Some (LoopNotClosed, 0) /\
  shape (parse 8 [43; 955; 91; 45; 93; 46]) = shape (parse 8 [43; 91; 45; 93; 46]) /\
  balanced [43; 91; 45; 93; 46] = true.
Proof. vm_compute. repeat split; reflexivity. Qed.

Print Assumptions C12_parse_accepts_iff.
Print Assumptions C12_parse_verdict.
Print Assumptions C12_comment_insensitive.
Print Assumptions C12_noncmd_above_ascii.
