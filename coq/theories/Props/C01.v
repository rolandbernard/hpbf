(** * C01 (level 0) — the unoptimised pipeline is correct for every program, input and width.

    [Parse.parse] is the model of [ir::Program::parse] (compared structurally with the
    implementation on every run of the C12 check), [IR.ir_exec] the model of the IR interpreter
    (compared with the implementation on every run of the C01 check), [BF.bf_exec] the canonical
    semantics.  At level 0 [Program::optimize] returns the parsed program unchanged.  Levels
    1..3 are decided per program by translation validation (see DESIGN.md). *)
From Coq Require Import ZArith List Bool.
From HPBF Require Import Cell IO BF Expr IR Parse BigStepProofs Level0Proofs.
Import ListNotations.
Open Scope Z_scope.

(** whenever the canonical run of a valid program terminates (or is stopped by an I/O failure,
    which is the C08 side), the parser accepts the text and the IR interpreter, run on the
    parser's output, reports itself finished with exactly the same event trace (that it ends the
    same way, with the same final I/O state, is [C01_level0_states] below) *)
Theorem C01_level0 : forall w e src p f o, 0 <= w ->
  ast_of_source src = Some p -> bf_exec w e f p bf0 = o -> terminal o ->
  exists blk fi, parse w src = POk blk /\
    events ir_io (ir_run w e false 0 fi blk) = events io o /\
    finished_flag (ir_run w e false 0 fi blk) = true.
Proof. exact level0_events. Qed.

(** the same through [same_events]: both [Done] or both [Stopped], with equal I/O states *)
Theorem C01_level0_states : forall w e src p f o, 0 <= w ->
  ast_of_source src = Some p -> bf_exec w e f p bf0 = o -> terminal o ->
  exists blk fi o', parse w src = POk blk /\ ir_run w e false 0 fi blk = o' /\ same_events o o'.
Proof. exact level0_correct. Qed.

(** conversely (cell width >= 1): whenever the IR interpreter ends on the parser's output, the
    canonical run ends the same way with the same events — so at level 0 the two runs agree
    whenever either of them ends *)
Theorem C01_level0_converse : forall w e src p blk fi o', 1 <= w ->
  ast_of_source src = Some p -> parse w src = POk blk ->
  ir_run w e false 0 fi blk = o' -> iterminal o' ->
  exists f o, bf_exec w e f p bf0 = o /\ terminal o /\ same_events o o'.
Proof. exact level0_backward. Qed.

(** the hypotheses are satisfiable by a program that exercises delayed increments, a moving loop,
    a [-]-like loop, input and output:  ,[->++<]>.[-]<+[>]  on input "!" *)
Definition demo_src : list Z := [44; 91; 45; 62; 43; 43; 60; 93; 62; 46; 91; 45; 93; 60; 43; 91; 62; 93].
Definition demo_env : env := {| input := [33]; in_absent := false; in_fail_at := None; out_present := true; out_fail_at := None |}.
Example C01_level0_nonvacuous :
  exists p, ast_of_source demo_src = Some p /\ terminal (bf_exec 8 demo_env 400 p bf0) /\
    events io (bf_exec 8 demo_env 400 p bf0) = [EvIn 33; EvOut 66].
Proof. eexists. split; [vm_compute; reflexivity|]. split; vm_compute; [exact I|reflexivity]. Qed.

Print Assumptions C01_level0.
Print Assumptions C01_level0_states.
Print Assumptions C01_level0_converse.
