(** * C14 — cell arithmetic helpers meet their algebraic contracts at every width.
    The proofs are in [CellProofs.v]; [C14_wpow] joins two of its theorems. *)
From Coq Require Import ZArith Lia.
From HPBF Require Import Cell CellProofs.
Open Scope Z_scope.

Theorem C14_wdiv : forall w n d, 1 <= w -> 0 <= n < 2 ^ w -> 0 <= d < 2 ^ w ->
  match wdiv w n d with
  | Some x => 0 <= x < 2 ^ w /\ (x * d) mod 2 ^ w = n /\ forall y, 0 <= y < x -> (y * d) mod 2 ^ w <> n
  | None => forall x, (x * d) mod 2 ^ w <> n
  end.
Proof. exact wdiv_spec. Qed.

Theorem C14_wdiv_no_underflow : forall w n d, 1 <= w -> 0 <= n < 2 ^ w -> 0 <= d < 2 ^ w ->
  wdiv_reaches_sub w n d = true -> 0 <= w - tz w d - 1 /\ 0 <= w - tz w d.
Proof. exact wdiv_no_underflow. Qed.

Theorem C14_winv : forall w x, 1 <= w -> 0 <= x < 2 ^ w ->
  match winv w x with
  | Some y => Z.odd x = true /\ 0 <= y < 2 ^ w /\ (x * y) mod 2 ^ w = 1
  | None => Z.odd x = false /\ forall y, (x * y) mod 2 ^ w <> 1
  end.
Proof. exact winv_spec. Qed.

Theorem C14_wpow : forall w b e, 1 <= w -> 0 <= e < 2 ^ w ->
  wpow w b e = (b ^ e) mod 2 ^ w /\ wpow w b e = wpow_iter w b (Z.to_nat e).
Proof. intros w b e Hw He. split; [exact (wpow_spec w b e Hw He)|exact (wpow_repeated_mul w b e Hw He)]. Qed.

Theorem C14_conv_u64 : forall w c, 1 <= w -> 0 <= c < 2 ^ w -> from_u64 w (into_u64 w c) = c.
Proof. exact from_u64_into_u64. Qed.

Theorem C14_conv_i64 : forall w c, 1 <= w -> 0 <= c < 2 ^ w ->
  - 2 ^ (w - 1) <= into_i64 w c < 2 ^ (w - 1) /\ (into_i64 w c) mod 2 ^ w = c.
Proof. exact into_i64_sign. Qed.

Theorem C14_conv_i16 : forall w v, 16 <= w <= 64 -> -32768 <= v <= 32767 ->
  try_into_i16 w (from_i16 w v) = Some v.
Proof. exact from_i16_try_into_i16. Qed.

Theorem C14_conv_i16_w8 : forall c, 0 <= c < 256 ->
  try_into_i16 8 c = Some (if c <? 128 then c else c - 256).
Proof. exact try_into_i16_w8. Qed.

Theorem C14_conv_u8 : forall w c, 8 <= w -> 0 <= c < 2 ^ w ->
  into_u8 w c = c mod 256 /\ (forall b, 0 <= b < 256 -> into_u8 w (from_u8 w b) = b).
Proof. exact into_u8_low8. Qed.

(** non-vacuity: concrete instances at each implemented width *)
Example C14_nonvacuous :
  wdiv 8 8 7 = Some 184 /\ wdiv 8 32 64 = None /\ wdiv 16 4660 6 = Some 22622 /\
  wdiv 32 305419896 24 = Some 12725829 /\ wdiv 64 81985529216486895 9 = Some 6158024194482793527 /\
  winv 64 3 = Some 12297829382473034411 /\ wpow 32 3 100 = 3476558801 /\
  wdiv_reaches_sub 8 8 7 = true.
Proof.
  repeat apply conj.
  1-2, 7-8: vm_compute; reflexivity.
  (* The wider quotients and the inverse are recognised by multiplying back: running the
     square-and-multiply loop at these widths is slow for a checker without the VM. *)
  1-3: apply wdiv_unique; cbn [tz tz_pos]; [lia..|reflexivity].
  apply winv_unique; [lia..|reflexivity].
Qed.

Print Assumptions C14_wdiv.
Print Assumptions C14_wdiv_no_underflow.
Print Assumptions C14_winv.
Print Assumptions C14_wpow.
Print Assumptions C14_conv_u64.
Print Assumptions C14_conv_i64.
Print Assumptions C14_conv_i16.
Print Assumptions C14_conv_i16_w8.
Print Assumptions C14_conv_u8.
