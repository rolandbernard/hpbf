(** * C03 (arithmetic instruction selection) — the per-form checker of the baseline JIT's machine
    code is sound: if [form_ok] accepts the code emitted for a [Copy]/[Add]/[Sub]/[Mul] bytecode
    instruction, then from every machine state the code computes, modulo 2^w, the instruction's
    result into the home of its destination (register, stack slot or tape cell), leaves rbx, rsp
    and rbp (context, stack and tape pointers) exactly as they were, and changes no
    other tape cell, no other stack slot and no register that is live after the instruction
    (rbx, rsp, rbp included), whatever the operand values — constants that do not fit 32 bits and
    temporaries spilled to the stack included.

    The check C03 disassembles (objdump) the code the current build emits for every normalised
    instruction shape x liveness variant x width, translates it to [X86.v] syntax (tools/x86tr.py:
    anything outside the modelled subset is reported, never skipped) and runs the extracted
    [form_ok].  [C03_form_sound] is the arithmetic part.  Runtime calls, conditional branches, the
    pointer move with its bounds probe and the frame have checkers of their own, run on the same
    disassembly and proved sound below; prologue, epilogue and the termination path are validated
    by execution (see DESIGN.md). *)
From Coq Require Import ZArith List Bool Zdiv.
From HPBF Require Import Cell IO Expr BC BCWf X86 X86Proofs X86Call X86CallProofs X86Mov X86MovProofs.
Import ListNotations.
Open Scope Z_scope.

Definition dst_of_instr (i : binstr) : option loc :=
  match i with Add d _ _ | Sub d _ _ | Mul d _ _ | Copy d _ => Some d | _ => None end.

(** the value the bytecode semantics assigns, from the operands' values in the machine state *)
Definition instr_value (st0 : xst) (i : binstr) : option Z :=
  match i with
  | Add _ a b => Some (loc_val st0 a + loc_val st0 b)
  | Sub _ a b => Some (loc_val st0 a - loc_val st0 b)
  | Mul _ a b => Some (loc_val st0 a * loc_val st0 b)
  | Copy _ a => Some (loc_val st0 a)
  | _ => None
  end.

Theorem C03_form_sound : forall w, 0 <= w <= 64 -> forall i live code,
  form_ok w i live code = true ->
  forall st0, exists d dst v,
    dst_of_instr i = Some d /\ home d = Some dst /\ instr_value st0 i = Some v /\
    (forall r, pinned r = true -> xr (xrun w code st0) r = xr st0 r) /\
    eqm (2 ^ w) (xval (xrun w code st0) dst) v /\
    (forall k, LCell k <> dst -> eqm (2 ^ w) (xc (xrun w code st0) k) (xc st0 k)) /\
    (forall t, LSlot t <> dst -> eqm (2 ^ w) (xs (xrun w code st0) t) (xs st0 t)) /\
    (forall r, LReg r <> dst -> may_clobber live r = false -> eqm (2 ^ w) (xr (xrun w code st0) r) (xr st0 r)).
Proof.
  intros w Hw i live code H st0.
  destruct (form_spec w i) as [[dst want]|] eqn:SP; [|unfold form_ok in H; rewrite SP in H; discriminate].
  destruct (form_ok_sound w Hw st0 i live code dst want H SP) as (PN & V & C & S & R).
  pose proof (form_spec_value w Hw st0 i dst want SP) as FV.
  destruct i as [| | | | | | |d a b|d a b|d a b|d a]; try contradiction; destruct FV as [[HD HV] _].
  all: exists d, dst; eexists; refine (conj eq_refl (conj HD (conj eq_refl (conj PN (conj _ (conj C (conj S R))))))).
  all: unfold eqm in *; rewrite V; exact HV.
Qed.

(** the same in terms of the bytecode semantics [BC.v]: if the machine state represents the
    bytecode state ([Rx]: cells at their offset from the tape pointer, temporaries in their register
    or stack slot, modulo 2^w) then after the accepted code it represents the state after the
    instruction ([bc_write] of the result [v] into the destination), for the destination and every
    temporary whose register the code was not allowed to clobber.  ([bc_binop] is that [bc_write]
    when no operand is read-and-clear: [binop_pure].) *)
Theorem C03_arith_simulates_bytecode : forall w, 0 <= w <= 64 ->
  forall i live code keep s st d (op : Z -> Z -> Z) (a b : option loc),
  form_ok w i live code = true ->
  (match i with
   | Add d' a' b' => d = d' /\ a = Some a' /\ b = Some b' /\ op = (fun x y => x + y)
   | Sub d' a' b' => d = d' /\ a = Some a' /\ b = Some b' /\ op = (fun x y => x - y)
   | Mul d' a' b' => d = d' /\ a = Some a' /\ b = Some b' /\ op = (fun x y => x * y)
   | Copy d' a' => d = d' /\ a = Some a' /\ b = None /\ op = (fun x _ => x)
   | _ => False
   end) ->
  dst_ok d = true -> (forall t, d = Tmp t -> 0 <= t) ->
  (forall l t, (a = Some l \/ b = Some l) -> l = Tmp t -> 0 <= t /\ keep t = true) ->
  Rx w keep s st ->
  forall v, eqm (2 ^ w) v (op (match a with Some l => fst (bc_read w s l) | None => 0 end)
                              (match b with Some l => fst (bc_read w s l) | None => 0 end)) ->
  Rx w (keep_after keep live d) (bc_write s d v) (xrun w code st).
Proof. exact form_simulates. Qed.

(** runtime-call templates ([Inp], [Out]) — exact 64-bit semantics with a stack and a call
    oracle ([X86Call.v]).  [st0]: any machine state at the start of the template with nothing
    pushed yet; [oracle r]: what the callee leaves in caller-saved register [r] (its return value is
    [oracle 0]).  If [call_ok] accepts the template then:
    - exactly one call is made, with the context pointer (initial rbx) as first argument (and, for
      output, the zero-extended cell as second); that the stack is 16-byte aligned at the call is
      tested by the checker ([X86Call.ystep] rejects a call with an odd number of words pushed,
      cf. [C03_frame]) and is not part of the conclusion;
    - the jump to the termination path is taken iff the callee reports failure (input: returns -1;
      output: returns a non-zero byte), and then nothing is left on the stack and no cell changed;
    - otherwise every pinned register and every register holding a live temporary has exactly its
      initial value, nothing is left on the stack, and the only cell changed is, for input, the
      destination, which holds the low w bits of the returned value. *)
Theorem C03_input_template : forall w oracle st0, kk st0 = [] -> kcalls st0 = [] ->
  forall dst live code, call_ok (Inp dst) live code = true ->
  let st' := fst (krun w oracle code st0) in
  let ex := snd (krun w oracle code st0) in
  (exists a2, kcalls st' = [(kr st0 3, a2)]) /\ ex = (oracle 0 =? U64M1) /\ kk st' = [] /\
  (ex = true -> forall k, kc st' k = kc st0 k) /\
  (ex = false -> (forall r, must_keep live r = true -> kr st' r = kr st0 r) /\
                 (forall k, kc st' k = if k =? dst then oracle 0 mod 2 ^ w else kc st0 k)).
Proof. exact call_ok_inp. Qed.

Theorem C03_output_template : forall w oracle st0, kk st0 = [] -> kcalls st0 = [] ->
  forall src live code, call_ok (Outp src) live code = true ->
  let st' := fst (krun w oracle code st0) in
  let ex := snd (krun w oracle code st0) in
  kcalls st' = [(kr st0 3, kc st0 src)] /\ ex = negb (oracle 0 mod 256 =? 0) /\ kk st' = [] /\
  (forall k, kc st' k = kc st0 k) /\
  (ex = false -> forall r, must_keep live r = true -> kr st' r = kr st0 r).
Proof. exact call_ok_out. Qed.

(** conditional branches: the accepted code compares the condition cell with zero at the cell
    width, changes nothing but the flags and jumps iff the cell is zero ([BrZ]) / non-zero ([BrNZ]);
    that the jump lands on the code of instruction pc+off is checked on the relocated code *)
Theorem C03_branch_template : forall w oracle i code st, br_ok i code = true ->
  fst (krun w oracle code st) = {| kr := kr st; kc := kc st; kk := kk st; kcalls := kcalls st;
                                    kzf := match i with BrZ c _ | BrNZ c _ => (kc st c =? 0) | _ => kzf st end |} /\
  snd (krun w oracle code st) =
    match i with BrZ c _ => (kc st c =? 0) | BrNZ c _ => negb (kc st c =? 0) | _ => false end.
Proof. exact br_ok_sound. Qed.

(** the pointer move with its bounds probe ([Instr::Mov], checked mode; [X86Mov.v]).
    [st]: machine state whose tape pointer rbp points at cell [q] of the buffer recorded in the
    context ([mB] address, [mS] size in cells); [ext]: what the callee does to (address, size,
    offset); [havoc]: what it leaves in caller-saved registers.  If [mov_ok] accepts the code then
    it computes the index [q + d + probe] of the probed window end, compares it unsigned with the
    size, and
    - inside the buffer: only moves the pointer by [d] cells (nothing else but rax changes);
    - outside: stores that index as the offset, calls [extend(cxt, 0, 1)] once with the live
      caller-saved registers saved and restored (the template [mov_ok] compares the code with pads
      an odd number of pushes by a word; alignment is not part of the conclusion), and sets the
      pointer to the cell [o' - probe] of the new buffer, [o'] being the offset the callee returns
      for the probed cell — which is the JIT's variant of the probe protocol proved safe in [C06_protocol_safe]. *)
Theorem C03_mov_template : forall w d mn mx live code, mov_ok w (MovP d) mn mx live code = true ->
  forall havoc ext st q, mk st = [] -> mcalls st = [] -> mr st 5 = mB st + (w / 8) * q ->
  let probe := if d <? 0 then mn else mx in
  let idx := q + d + probe in
  let below := (idx mod 2 ^ 64 <? mS st mod 2 ^ 64) in
  exists stf, mrun havoc ext code st = (stf, below) /\
    if below
    then mr stf 5 = mB st + (w / 8) * (q + d) /\ mB stf = mB st /\ mS stf = mS st /\ mO stf = mO st /\
         mk stf = [] /\ mcalls stf = [] /\ (forall r, r <> 0 -> r <> 5 -> mr stf r = mr st r)
    else (let '(b', s', o') := ext (mB st, mS st, idx) in
          mB stf = b' /\ mS stf = s' /\ mO stf = o' /\ mr stf 5 = b' + (w / 8) * (o' - probe)) /\
         mcalls stf = [(mr st 3, 0, 1)] /\ mk stf = [] /\
         (forall r, must_keep live r = true -> r <> 5 -> mr stf r = mr st r).
Proof. exact mov_ok_sound. Qed.

(** the unsigned comparison is the bounds test: with indices and sizes below 2^63 *)
Theorem C03_unsigned_probe : forall idx S, - 2 ^ 63 <= idx < 2 ^ 63 -> 0 <= S < 2 ^ 63 ->
  (idx mod 2 ^ 64 <? S mod 2 ^ 64) = ((0 <=? idx) && (idx <? S)).
Proof. exact unsigned_below. Qed.

(** the frame: with [pushes] callee-saved registers pushed and [sub_bytes] reserved by the prologue
    (checked on the emitted code together with the matching epilogue), every stack temporary's slot
    [rsp + 8 t] lies inside the reserved area and rsp is 16-byte aligned in the body *)
Theorem C03_frame : forall temps pushes sub_bytes, frame_ok temps pushes sub_bytes = true ->
  forall rsp0, (rsp0 + 8) mod 16 = 0 ->
  (rsp0 - 8 * pushes - sub_bytes) mod 16 = 0 /\
  (forall t, 0 <= t < temps -> 0 <= 8 * t /\ 8 * t + 8 <= sub_bytes).
Proof. exact frame_ok_sound. Qed.

(** the template the JIT emits for  Inp(-1)  with temporaries 4, 5, 6 live (three pushes and the
    alignment word) is accepted; without the alignment word, or jumping before the pops, it is not *)
Example C03_call_nonvacuous :
  let good := [KPush 6; KPush 7; KPush 2; KSubRsp; KMovRR 7 3; KMovI 0 4096; KCall 0; KAddRsp; KPop 2; KPop 7; KPop 6;
               KCmp64 0 U64M1; KJe; KStore (-1) 0] in
  let unaligned := [KPush 6; KPush 7; KPush 2; KMovRR 7 3; KMovI 0 4096; KCall 0; KPop 2; KPop 7; KPop 6;
                    KCmp64 0 U64M1; KJe; KStore (-1) 0] in
  let early := [KPush 6; KPush 7; KPush 2; KSubRsp; KMovRR 7 3; KMovI 0 4096; KCall 0; KCmp64 0 U64M1; KJe;
                KAddRsp; KPop 2; KPop 7; KPop 6; KStore (-1) 0] in
  call_ok (Inp (-1)) 112 good = true /\ call_ok (Inp (-1)) 112 unaligned = false /\ call_ok (Inp (-1)) 112 early = false.
Proof. vm_compute. repeat split; reflexivity. Qed.

(** non-vacuity: the code the JIT emits for  Mul(Mem 0, Tmp 11, Tmp 12)  at 8 bits is accepted; the
    same with [add] for [imul] is rejected, and so is code that clobbers a live register *)
Example C03_nonvacuous :
  form_ok 8 (Mul (Mem 0) (Tmp 11) (Tmp 12)) 55 [XMov (XReg 0 64) (XSlot 12); XImul2 (XReg 0 64) (XSlot 11); XMov (XCell 0) (XReg 0 8)] = true /\
  form_ok 8 (Mul (Mem 0) (Tmp 11) (Tmp 12)) 55 [XMov (XReg 0 64) (XSlot 12); XAdd (XReg 0 64) (XSlot 11); XMov (XCell 0) (XReg 0 8)] = false /\
  form_ok 64 (Mul (Tmp 0) (Tmp 0) (Tmp 1)) 65535 [XImul2 (XReg 13 64) (XReg 12 64); XMov (XReg 12 64) (XReg 13 64)] = false.
Proof. vm_compute. repeat split; reflexivity. Qed.

Print Assumptions C03_form_sound.
Print Assumptions C03_input_template.
Print Assumptions C03_output_template.
Print Assumptions C03_branch_template.
Print Assumptions C03_mov_template.
Print Assumptions C03_unsigned_probe.
Print Assumptions C03_frame.
Print Assumptions C03_arith_simulates_bytecode.
