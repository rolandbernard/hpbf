(** * C15 — the symbolic expression algebra agrees with concrete arithmetic modulo 2^w.
    [eval] is the model of [Expr::evaluate]; [eqm (2^w)] is congruence modulo 2^w. *)
From Coq Require Import ZArith List Bool Zdiv.
From HPBF Require Import Cell Expr ExprProofs ExprShape.
Import ListNotations.
Open Scope Z_scope.

Theorem C15_add : forall w, 0 <= w -> forall rho a b, eqm (2 ^ w) (eval w (e_add w a b) rho) (eval w a rho + eval w b rho).
Proof. exact eval_add. Qed.
Theorem C15_mul : forall w, 0 <= w -> forall rho a b, eqm (2 ^ w) (eval w (e_mul w a b) rho) (eval w a rho * eval w b rho).
Proof. exact eval_mul. Qed.
Theorem C15_neg : forall w, 0 <= w -> forall rho a, eqm (2 ^ w) (eval w (e_neg w a) rho) (- eval w a rho).
Proof. exact eval_neg. Qed.
Theorem C15_half : forall w, 0 <= w -> forall rho a h, e_half w a = Some h -> eqm (2 ^ w) (2 * eval w h rho) (eval w a rho).
Proof. exact eval_half. Qed.
Theorem C15_normalize : forall w, 0 <= w -> forall rho a, eqm (2 ^ w) (eval w (e_normalize w a) rho) (eval w a rho).
Proof. exact eval_normalize. Qed.
Theorem C15_substitution : forall w, 0 <= w -> forall rho f a r, e_symb_evaluate w a f = Some r ->
  eqm (2 ^ w) (eval w r rho) (eval w a (fun v => match f v with Some e' => eval w e' rho | None => 0 end)).
Proof. exact eval_symb. Qed.
Theorem C15_val : forall w, 0 <= w -> forall rho c, eqm (2 ^ w) (eval w (e_val c) rho) c.
Proof. exact eval_val. Qed.
Theorem C15_var : forall w, 0 <= w -> forall rho v, eqm (2 ^ w) (eval w (e_var v) rho) (rho v).
Proof. exact eval_var. Qed.

(** decompositions that recompose for every expression *)
Theorem C15_constant : forall w, 0 <= w -> forall rho a c, e_constant a = Some c -> eqm (2 ^ w) (eval w a rho) c.
Proof. exact eval_constant. Qed.
Theorem C15_identity : forall w, 0 <= w -> forall rho a x, e_identity a = Some x -> eqm (2 ^ w) (eval w a rho) (rho x).
Proof. exact eval_identity. Qed.
Theorem C15_const_inc_of : forall w, 0 <= w -> forall rho a v c, e_const_inc_of a v = Some c -> eqm (2 ^ w) (eval w a rho) (rho v + c).
Proof. exact eval_const_inc_of. Qed.
Theorem C15_prod_of : forall w, 0 <= w -> forall rho a v r, e_prod_of w a v = Some r -> eqm (2 ^ w) (eval w a rho) (rho v * eval w r rho).
Proof. exact eval_prod_of. Qed.

(** the remaining decompositions hold for every expression built through the public API
    ([built w]: the closure of val, var, add, mul, neg, half, normalize, symb_evaluate and of the
    results of inc_of, prod_inc_of, prod_of).  They rest on a representation invariant that the
    part lists of such expressions satisfy ([C15_built_shape]: every part with at most one variable
    is strictly greater than every part before it — the lists are NOT sorted in general, because a
    product with a single part appends variables without re-sorting), which gives "at most one
    bare-variable part per variable" and "a constant part, if any, comes first". *)
Theorem C15_built_shape : forall w a, built w a -> J a /\ (forall v, singles_unique v a) /\ const_first a.
Proof.
  intros w a B. pose proof (built_J w a B) as HJ.
  split; [exact HJ|]. split; [intros v; apply J_singles; exact HJ|apply J_const_first; exact HJ].
Qed.
Theorem C15_inc_of : forall w, 0 <= w -> forall rho a v r, built w a -> e_inc_of a v = Some r ->
  eqm (2 ^ w) (eval w a rho) (rho v + eval w r rho).
Proof. exact eval_inc_of. Qed.
Theorem C15_prod_inc_of : forall w, 0 <= w -> forall rho a v r m, built w a -> e_prod_inc_of a v = Some (r, m) ->
  eqm (2 ^ w) (eval w a rho) (m * rho v + eval w r rho).
Proof. exact eval_prod_inc_of. Qed.
Theorem C15_constant_part : forall w, 0 <= w -> forall a, built w a ->
  eqm (2 ^ w) (eval w a (fun _ => 0)) (e_constant_part a).
Proof. exact eval_constant_part. Qed.

(** why [prod_of] merges the parts it produces one by one (repaired by a "fix:" commit, D10): with
    the variable merely removed from every part, y*x + y gave the list [x; 1] — constant part not
    first, [constant_part] = 0 instead of 1.  The repaired function returns [1; x]. *)
Example C15_prod_of_keeps_the_shape :
  let a := e_add 8 (e_mul 8 (e_var 1) (e_var 0)) (e_var 1) in
  a = [(1, [0; 1]); (1, [1])] /\ built 8 a /\
  map (fun p => (fst p, remove_var 1 (snd p))) a = [(1, [0]); (1, [])] /\
  e_constant_part [(1, [0]); (1, [])] = 0 /\
  e_prod_of 8 a 1 = Some [(1, []); (1, [0])] /\ e_constant_part [(1, []); (1, [0])] = 1.
Proof.
  cbv zeta. split; [vm_compute; reflexivity|]. split.
  - apply b_add; [apply b_mul|]; apply b_var.
  - vm_compute. repeat split; reflexivity.
Qed.

Example C15_nonvacuous :
  (* 128*x*x + 129*x*x*y at 8 bits, x = 3, y = 5: normalisation rewrites it and keeps the value *)
  let a := [(128, [1; 1]); (129, [1; 1; 2])] in
  let rho := fun v => if v =? 1 then 3 else 5 in
  e_normalize 8 a = [(128, [1]); (129, [1; 1; 2])] /\ eval 8 a rho = 45 /\ eval 8 (e_normalize 8 a) rho = 45.
Proof. vm_compute. repeat split; reflexivity. Qed.

Print Assumptions C15_add.
Print Assumptions C15_mul.
Print Assumptions C15_neg.
Print Assumptions C15_half.
Print Assumptions C15_normalize.
Print Assumptions C15_substitution.
Print Assumptions C15_val.
Print Assumptions C15_var.
Print Assumptions C15_constant.
Print Assumptions C15_identity.
Print Assumptions C15_const_inc_of.
Print Assumptions C15_prod_of.
Print Assumptions C15_built_shape.
Print Assumptions C15_inc_of.
Print Assumptions C15_prod_inc_of.
Print Assumptions C15_constant_part.
