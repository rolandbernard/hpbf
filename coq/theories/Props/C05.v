(** * C05 — divergence certificates: a canonical run that repeats a machine state never halts.
    (The backend side of C05 is validated per program against these certificates, see DESIGN §4.) *)
From Coq Require Import ZArith List.
From HPBF Require Import IO BF IR Parse Machines MachineProofs BigStepProofs Level0Proofs.
Import ListNotations.

(** if the certificate checker accepts (i, d) — the configurations after i and after i+d+1 steps
    exist and agree on control, continuation, tape contents, pointer and remaining input, in a
    fault-free environment — then the canonical machine is still running after any number of steps *)
Theorem C05_state_repeat_diverges : forall w e p i d,
  cert_ok w e p i d = true ->
  forall n, exists s, bf_steps w e n {| c_ctl := p; c_kont := []; c_st := bf0 |} = OutOfFuel s.
Proof. exact state_repeat_diverges. Qed.

(** equivalent configurations stay equivalent: what happens after the repeat is what happened
    after the first visit (this is why the events are ultimately periodic) *)
Theorem C05_equiv_runs : forall w e n c1 c2, fault_free e -> ceq e c1 c2 ->
  match bf_cfg_after w e n c1, bf_cfg_after w e n c2 with
  | Some a, Some b => ceq e a b
  | None, None => True
  | _, _ => False
  end.
Proof. exact run_equiv. Qed.

(** the stack machine the oracle runs and the fuel-indexed big-step definition of [BF.v] (the
    specification) have the same terminating runs, for every program and environment; together
    with [C05_state_repeat_diverges] this makes "the machine never halts" the same statement as
    "no amount of big-step fuel produces a result" *)
Theorem C05_oracle_is_spec : forall w e p o, terminal o ->
  (exists f, bf_exec w e f p bf0 = o) <->
  (exists n, bf_steps w e n {| c_ctl := p; c_kont := []; c_st := bf0 |} = o).
Proof. exact big_step_machine. Qed.

(** level 0: a canonically divergent program never returns from the IR interpreter run on the
    parser's output (model level: no amount of fuel makes [IR.ir_exec] end) *)
Theorem C05_level0_divergence : forall w e src p blk, 1 <= w ->
  ast_of_source src = Some p -> parse w src = POk blk ->
  (forall f, ~ terminal (bf_exec w e f p bf0)) ->
  forall fi, ~ iterminal (ir_run w e false 0 fi blk).
Proof. exact level0_divergence. Qed.

Example C05_nonvacuous :
  (* +[.-+] : prints 01 forever *)
  cert_ok 8 {| input := []; in_absent := false; in_fail_at := None; out_present := true; out_fail_at := None |}
    [Inc; Loop [Out; Dec; Inc]] 2 3 = true.
Proof. vm_compute. reflexivity. Qed.

Print Assumptions C05_state_repeat_diverges.
Print Assumptions C05_equiv_runs.
Print Assumptions C05_oracle_is_spec.
Print Assumptions C05_level0_divergence.
