(** * C10 (memory protocol) — unchecked execution inside a pre-allocated region never dereferences
    outside the tape buffer and behaves like the unbounded zero-initialised array.

    [BCRaw.r_run] with [RPre (-m) (m+1)] (the caller's [make_accessible(-m, m+1)]), unprobed moves
    [RMovU] and raw accesses.  The hypothesis [uops_ok m]: every accessed cell is one of [-m .. m].
    For generated bytecode this hypothesis is validated per program and level by the C10 check
    (pointer excursion of the bytecode model run + declared window, operands inside the window by
    [C11_cells_in_window]); that the events equal the canonical ones is C02/C03. *)
From Coq Require Import ZArith List Bool.
From HPBF Require Import BC Tape TapeProofs BCRaw BCRawProofs X86Mov X86MovProofs.
Import ListNotations.
Open Scope Z_scope.

Theorem C10_unchecked_safe : forall pol, PolicyOK pol -> forall m ops allocs, uops_ok m ops 0 = true ->
  match r_run pol 0 0 (RPre (- m) (m + 1) :: ops) allocs rtape0 with
  | TOk (log, _) => vals_of log = r_spec ops (fun _ => 0) 0
  | RawOob _ => False
  | TooLarge | AllocFail => True
  end.
Proof. exact unchecked_safe. Qed.

(** the JIT's unchecked pointer move is the bare addition to the tape pointer ([RMovU]); the C10
    check validates it, and every other instruction's code, in every generated program's unchecked
    machine code *)
Theorem C10_jit_unchecked_move : forall w d code havoc ext st, mov_unsafe_ok w (MovP d) code = true ->
  mrun havoc ext code st = (mset st 5 (mr st 5 + w / 8 * d), false).
Proof. exact mov_unsafe_ok_sound. Qed.

(** one cell beyond the region is out of bounds *)
Example C10_region_is_needed :
  r_run rust_policy 0 0 [RPre (-3) 4; RMovU 3; RGet 1] [] rtape0 = RawOob 7.
Proof. vm_compute. reflexivity. Qed.

Example C10_nonvacuous :
  let ops := [RSet 2 5; RMovU 3; RGet (-1); RSet 0 9; RMovU (-6); RGet 6; RGet 0] in
  uops_ok 3 ops 0 = true /\
  match r_run rust_policy 0 0 (RPre (-3) 4 :: ops) [] rtape0 with
  | TOk (log, tf) => vals_of log = [5; 9; 0] /\ t_size tf = 7
  | _ => False
  end.
Proof. vm_compute. repeat split; reflexivity. Qed.

Print Assumptions C10_unchecked_safe.
Print Assumptions C10_jit_unchecked_move.
