(** * C11 — the bytecode well-formedness checker is sound: a program it accepts satisfies every
    clause of the property, stated over control-flow paths.

    The check C11 runs the extracted [bc_wf] on the bytecode the implementation generates for
    every generated program x width x level x generator setting; these theorems say what an
    acceptance means.  ([instr_at code pc]: the instruction at program counter [pc];
    [succs pc i]: its control-flow successors; [len]: the exit.) *)
From Coq Require Import ZArith List Bool.
From HPBF Require Import Cell IO BC BCWf BCHavoc BCWfProofs BCProofs BCHavocProofs.
Import ListNotations.
Open Scope Z_scope.

(** every branch lands on an instruction boundary inside the program *)
Theorem C11_branch_targets : forall num_regs fuse p, bc_wf num_regs fuse p = true ->
  forall pc i s, instr_at (bp_code p) pc = Some i -> List.In s (succs pc i) ->
  0 <= s <= Z.of_nat (length (bp_code p)).
Proof. exact wf_branch_targets. Qed.

(** every tape operand (and condition / I/O cell) lies inside the declared window, which contains 0 *)
Theorem C11_cells_in_window : forall num_regs fuse p, bc_wf num_regs fuse p = true ->
  bp_min p <= 0 <= bp_max p /\
  forall pc i k, instr_at (bp_code p) pc = Some i -> List.In k (cells_of i) -> bp_min p <= k <= bp_max p.
Proof. intros n f p H. split; [exact (wf_window_has_zero n f p H)|exact (wf_cells_in_window n f p H)]. Qed.

(** every temporary index is below the declared count *)
Theorem C11_temps_in_range : forall num_regs fuse p, bc_wf num_regs fuse p = true ->
  forall pc i t, instr_at (bp_code p) pc = Some i -> List.In t (temps_of i) -> 0 <= t < bp_temps p.
Proof. exact wf_temps_in_range. Qed.

(** no temporary is read before it is written, on any path: if some path from the entry reaches [pc]
    having written the temporaries [D], every temporary the instruction at [pc] reads is in [D] *)
Theorem C11_defined_before_use : forall num_regs fuse p, bc_wf num_regs fuse p = true ->
  forall pc D i t, written (bp_code p) pc D -> instr_at (bp_code p) pc = Some i ->
  List.In (Tmp t) (srcs_of i) -> Z.testbit D t = true.
Proof.
  intros n f p H pc D i t W HI HS. apply (wf_defined_before_use n f p H pc D i t W HI).
  apply uses_reads; [|exact HS]. apply (wf_temps_in_range n f p H pc i t HI (srcs_temps i t HS)).
Qed.

(** every register temporary still needed after a non-branch instruction, and not written by it, is
    declared live across it *)
Theorem C11_live_declared : forall num_regs fuse p, bc_wf num_regs fuse p = true ->
  forall pc i s t, instr_at (bp_code p) pc = Some i -> is_branch i = false ->
  List.In s (succs pc i) -> needed (bp_code p) t s -> dst_of i <> Some (Tmp t) ->
  0 <= t -> t < num_regs -> t < 16 ->
  exists l, nth_error (bp_live p) (Z.to_nat pc) = Some l /\ Z.testbit l t = true.
Proof.
  intros n f p H pc i s t HI NB HS N ND T0 T1 T2. eapply (wf_live_declared n f p H); try eassumption.
  destruct (Z.testbit (defs i) t) eqn:E; [|reflexivity]. exfalso. apply ND. apply defs_writes. exact E.
Qed.

(** semantic reading of the branch-target clause: an accepted program, run by the bytecode
    semantics in either mode from the initial state, never fetches outside its code *)
Theorem C11_never_leaves_code : forall num_regs fuse p, bc_wf num_regs fuse p = true ->
  forall w e limited budget fuel,
  match bc_run w e limited budget fuel p with Errored _ _ => False | _ => True end.
Proof. intros n f p H w e lim b fu. exact (run_safe n f p H w e lim b fu). Qed.

(** the liveness clause read semantically: the JIT keeps only the temporaries declared live in
    registers across an instruction and may use every other register as scratch.  [bc_run_h]
    makes that explicit — after every non-branch instruction each register temporary that is
    neither declared live nor written by it receives an arbitrary value [hv fuel t] — and on an
    accepted program no choice of those values is observable: same outcome kind, tape, pointer,
    program counter and I/O history as the plain semantics, for every fuel *)
Theorem C11_nonlive_registers_unobservable : forall num_regs fuse p, bc_wf num_regs fuse p = true ->
  forall w e hv fuel,
  match bc_run_h w e num_regs hv fuel p, bc_run w e false 0 fuel p with
  | Done h, Done s | Stopped h, Stopped s | OutOfFuel h, OutOfFuel s =>
      bc_tape h = bc_tape s /\ bc_ptr h = bc_ptr s /\ bc_pc h = bc_pc s /\ bc_io h = bc_io s
  | Errored _ _, Errored _ _ => True
  | _, _ => False
  end.
Proof. exact havoc_unobservable. Qed.

(** non-vacuity of the clobbering: the checker accepts [keep [0;0;1;0;0]] (the temporary is declared
    live across the output between its definition and its use); with the live bit dropped the
    checker rejects the program, and then the clobbered register *is* observable (12 vs 10) *)
Definition env5 : env := {| input := [5]; in_absent := false; in_fail_at := None; out_present := true; out_fail_at := None |}.
Definition keep (l : list Z) : bprog :=
  {| bp_temps := 1; bp_min := 0; bp_max := 1; bp_live := l;
     bp_code := [Inp 0; Copy (Tmp 0) (Mem 0); Outp 0; Add (Mem 1) (Mem 0) (Tmp 0); Outp 1] |}.
Example C11_clobbering_is_observable_when_rejected :
  bc_wf 2 false (keep [0;0;1;0;0]) = true /\ bc_wf 2 false (keep [0;0;0;0;0]) = false /\
  match bc_run_h 8 env5 2 (fun _ _ => 7) 10 (keep [0;0;0;0;0]), bc_run 8 env5 false 0 10 (keep [0;0;0;0;0]) with
  | Done h, Done s => trace (bc_io h) = [EvOut 12; EvOut 5; EvIn 5] /\ trace (bc_io s) = [EvOut 10; EvOut 5; EvIn 5]
  | _, _ => False
  end.
Proof. vm_compute. repeat split; reflexivity. Qed.

(** non-vacuity: a small program the checker accepts, with a loop, a temporary and a live set *)
Definition demo : bprog :=
  {| bp_temps := 1; bp_min := 0; bp_max := 1; bp_live := [0; 0; 1; 0; 0];
     bp_code := [Inp 0; BrZ 0 4; Copy (Tmp 0) (Mem 0); Add (Mem 1) (Mem 1) (Tmp 0); BrNZ 1 (-2)] |}.
Example C11_nonvacuous : bc_wf 2 false demo = true /\ written (bp_code demo) 3 1.
Proof.
  split; [vm_compute; reflexivity|].
  change 1 with (Z.lor (Z.lor (Z.lor 0 (defs (Inp 0))) (defs (BrZ 0 4))) (defs (Copy (Tmp 0) (Mem 0)))).
  eapply wr_step with (pc := 2); [|reflexivity|left; reflexivity].
  eapply wr_step with (pc := 1); [|reflexivity|right; left; reflexivity].
  eapply wr_step with (pc := 0); [apply wr_entry|reflexivity|left; reflexivity].
Qed.

Print Assumptions C11_branch_targets.
Print Assumptions C11_cells_in_window.
Print Assumptions C11_temps_in_range.
Print Assumptions C11_defined_before_use.
Print Assumptions C11_live_declared.
Print Assumptions C11_never_leaves_code.
Print Assumptions C11_nonlive_registers_unobservable.
