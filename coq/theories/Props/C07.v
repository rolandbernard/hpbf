(** * C07 (IR interpreter) — budget-limited execution is a faithful finite prefix of the
    unlimited execution, returns within a depth bounded by program size + budget, and equals the
    unlimited execution once the budget is large enough.

    [IR.ir_exec w e true]  is the model of [execute_block::<_, true>]  ([execute_limited]),
    [IR.ir_exec w e false] the model of [execute_block::<_, false>] ([execute]); both are compared
    with the implementation on every run of the C01/C07 checks.  How the unlimited IR run relates
    to the canonical run is C01: a theorem at level 0, a validation of each generated program at the
    higher levels. *)
From Coq Require Import ZArith List Bool Lia.
From HPBF Require Import Cell IO BF Expr IR BC Level0Proofs LimitedProofs BCProofs X86Mov X86MovProofs.
Import ListNotations.
Open Scope Z_scope.

(** "finished" with events E  ==>  the unlimited run ends the same way with exactly E *)
Theorem C07_ir_finished_is_complete : forall w e f p s g, (f <= g)%nat ->
  match ir_exec w e true f p s with
  | Done _ | Stopped _ =>
      oeq (ir_exec w e false g p s) (ir_exec w e true f p s) /\
      events ir_io (ir_exec w e false g p s) = events ir_io (ir_exec w e true f p s)
  | _ => True
  end.
Proof.
  intros w e f p s g L. pose proof (limited_prefix w e f p s g L) as H.
  destruct (ir_exec w e true f p s) as [a|a|a|q a|a]; try exact I; cbn [LP] in H;
    (split; [exact H|unfold events; rewrite (oeq_io _ _ H); reflexivity]).
Qed.

(** "not finished"  ==>  the budget is used up and the events are a prefix of those of the
    unlimited run, whatever fuel (>= the fuel of the limited run) the latter is given *)
Theorem C07_ir_interrupted_is_prefix : forall w e f p s g s', (f <= g)%nat ->
  ir_exec w e true f p s = Interrupted s' ->
  ir_budget s' = 0 /\
  exists later, events ir_io (ir_exec w e false g p s) = events ir_io (Interrupted s') ++ later.
Proof.
  intros w e f p s g s' L H. pose proof (limited_prefix w e f p s g L) as P. rewrite H in P.
  destruct P as [B [l X]]. split; [exact B|]. exists (rev l). unfold events. cbn [outcome_state].
  rewrite X, rev_app_distr. reflexivity.
Qed.

(** the limited run always returns: fuel (= recursion depth of the interpreter) proportional to
    program size + budget suffices, whatever the program does *)
Theorem C07_ir_returns : forall w e f p s, 0 <= ir_budget s ->
  (bsize p + Z.to_nat (ir_budget s) + 1 <= f)%nat ->
  match ir_exec w e true f p s with OutOfFuel _ | Errored _ _ => False | _ => True end.
Proof.
  intros w e f p s B L. destruct (limited_returns w e f p s B) as [_ N].
  destruct (ir_exec w e true f p s); try exact I; [exact N|lia].
Qed.

(** a terminating run is reported as finished, with the same state, by every large enough budget *)
Theorem C07_ir_large_budget : forall w e f p s o, ir_exec w e false f p s = o -> iterminal o ->
  exists n, 0 <= n /\ forall b, n <= b ->
    ir_exec w e true f p (ir_set_budget s b) = with_budget o (b - n) /\
    finished_flag (ir_exec w e true f p (ir_set_budget s b)) = true.
Proof.
  intros w e f p s o H T. destruct (big_budget w e f p s o H T) as (n & N & HN).
  exists n. split; [exact N|]. intros b Lb. split; [apply HN; exact Lb|]. rewrite (HN b Lb).
  destruct o; try contradiction; reflexivity.
Qed.

(** a divergent program is never reported as finished: finished means the unlimited run ended *)
Corollary C07_ir_divergent_never_finished : forall w e p s,
  (forall g, match ir_exec w e false g p s with Done _ | Stopped _ => False | _ => True end) ->
  forall f, match ir_exec w e true f p s with Done _ | Stopped _ => False | _ => True end.
Proof.
  intros w e p s D f. pose proof (limited_prefix w e f p s f (le_n f)) as P. specialize (D f).
  destruct (ir_exec w e true f p s) as [a|a|a|q a|a]; try exact I; cbn [LP] in P;
    destruct (ir_exec w e false f p s); try contradiction.
Qed.

(** bytecode interpreter ([BC.bc_run] with [limited = true]: [limit 1] before every branch,
    [limit usize::MAX] before an entered stationary scan, early exit on budget 0) *)
Theorem C07_bc_limited_is_prefix : forall w e p budget f,
  match bc_run w e true budget f p with
  | Done s' => bc_run w e false budget f p = Done (bc_set_budget s' budget)
  | Stopped s' => bc_run w e false budget f p = Stopped (bc_set_budget s' budget)
  | Interrupted s' =>
      exists later, events bc_io (bc_run w e false budget f p) = events bc_io (Interrupted s') ++ later
  | _ => True
  end.
Proof.
  intros w e p budget f. unfold bc_run. cbn [andb].
  destruct (budget =? 0) eqn:B0.
  - exists (events bc_io (bc_exec w e false (fetch_of p) (Z.of_nat (length (bp_code p))) f (bc0 budget))). reflexivity.
  - pose proof (bc_limited_prefix w e (fetch_of p) (Z.of_nat (length (bp_code p))) f (bc0 budget) budget) as H.
    change (sb (bc0 budget) budget) with (bc0 budget) in H.
    destruct (bc_exec w e true (fetch_of p) (Z.of_nat (length (bp_code p))) f (bc0 budget)) as [a|a|a|q a|a];
      cbn [LPb] in H; try exact I; try exact H.
    destruct H as [_ [l X]]. exists (rev l). unfold events. cbn [outcome_state]. rewrite X, rev_app_distr. reflexivity.
Qed.

(** baseline JIT: the budget check emitted before every branch in limited mode takes the same
    decision as the bytecode model's [bc_limit 1] — out through the termination path iff the budget
    is at most 1, otherwise the budget is decremented (64-bit unsigned comparison) *)
Theorem C07_jit_limit_template : forall code st, limit_ok code = true -> 0 <= l_budget st < 2 ^ 64 ->
  snd (lrun code st) = (l_budget st <=? 1) /\
  (snd (lrun code st) = false -> l_budget (fst (lrun code st)) = l_budget st - 1).
Proof. exact limit_ok_sound. Qed.

(** non-vacuity:  +[>+.<]  style loop ( cell0 := 3; while cell0 { cell1 += 1; out cell1; cell0 -= 1 } )
    interrupted by budget 1, finished by budget 5 *)
Definition demo : list instr :=
  [ICalc [(0, [(3, [])])];
   ILoop 0 0 [ICalc [(1, [(1, []); (1, [1])])]; IOut 1; ICalc [(0, [(255, []); (1, [0])])]] false].
Definition demo_env : env := {| input := []; in_absent := false; in_fail_at := None; out_present := true; out_fail_at := None |}.
Example C07_nonvacuous :
  events ir_io (ir_exec 8 demo_env true 50 demo (ir0 1)) = [EvOut 1; EvOut 2] /\
  finished_flag (ir_exec 8 demo_env true 50 demo (ir0 1)) = false /\
  events ir_io (ir_exec 8 demo_env true 50 demo (ir0 5)) = [EvOut 1; EvOut 2; EvOut 3] /\
  finished_flag (ir_exec 8 demo_env true 50 demo (ir0 5)) = true /\
  events ir_io (ir_exec 8 demo_env false 50 demo (ir0 0)) = [EvOut 1; EvOut 2; EvOut 3].
Proof. vm_compute. repeat split; reflexivity. Qed.

Print Assumptions C07_ir_finished_is_complete.
Print Assumptions C07_ir_interrupted_is_prefix.
Print Assumptions C07_ir_returns.
Print Assumptions C07_ir_large_budget.
Print Assumptions C07_bc_limited_is_prefix.
Print Assumptions C07_jit_limit_template.
