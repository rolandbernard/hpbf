(** * C06 (memory protocol) — the one-sided bounds probes of the checked bytecode interpreter /
    JIT never dereference outside the tape buffer, and the tape behaves like an unbounded
    zero-initialised array across any number of reallocations in either direction.

    [BCRaw.r_run] is the protocol (entry: make the window accessible; move by d: probe the lower
    end if d < 0, the upper end otherwise, on a miss grow to the whole window ([RMov], bytecode
    interpreter) or request only the probed cell ([RMovJ], baseline JIT); operand access: raw
    dereference) over the tape model of [Tape.v] (C09); [RawOob] is the outcome "dereferenced
    outside the buffer".
    That the operands of generated bytecode lie in the window is C11 ([C11_cells_in_window]).
    The protocol model is compared with [runtime::Memory] on random histories by the C06 check;
    the machine code of the JIT's checked pointer move is [C03_mov_template], tied to this protocol
    by [C06_jit_slow_path] below; all other pointer arithmetic is observed under guard pages only. *)
From Coq Require Import ZArith List Bool.
From HPBF Require Import Tape TapeProofs BCRaw BCRawProofs.
Import ListNotations.
Open Scope Z_scope.

Theorem C06_protocol_safe : forall pol, PolicyOK pol -> forall mn mx, - MAG <= mn <= 0 -> 0 <= mx < MAG ->
  forall ops allocs, rops_ok mn mx ops 0 = true ->
  match r_run pol mn mx (REnter :: ops) allocs rtape0 with
  | TOk (log, _) => vals_of log = r_spec ops (fun _ => 0) 0
  | RawOob _ => False
  | TooLarge | AllocFail => True
  end.
Proof. exact protocol_safe. Qed.

(** what the JIT's machine code does on a probe miss (theorem [C03_mov_template]: make the probed
    cell the current one, call [make_accessible(0, 1)], move back by the probe offset) is, on the
    tape model, exactly the request [make_accessible(probe, probe + 1)] of [BCRaw.r_probe_jit] *)
Theorem C06_jit_slow_path : forall pol t s base p ok, Inv t s base -> - MAG <= p <= MAG -> - MAG <= s_pos s + p <= MAG ->
  match t_make_accessible pol ok (t_mov t p) 0 1, t_make_accessible pol ok t p (p + 1) with
  | TOk t1, TOk t2 => t_mov t1 (- p) = t2
  | TooLarge, TooLarge | AllocFail, AllocFail => True
  | _, _ => False
  end.
Proof. exact jit_slow_path. Qed.

(** the window must really cover the operands: one cell beyond it is out of bounds right after entry *)
Example C06_window_is_needed :
  r_run rust_policy (-2) 3 [REnter; RGet 4] [] rtape0 = RawOob 6.
Proof. vm_compute. reflexivity. Qed.

Example C06_nonvacuous :
  let ops := [RSet 1 7; RMov (-5); RGet 3; RMovJ 6; RGet 0; RGet (-2); RMovJ 100; RSet 3 9; RMov (-100); RGet 3; RGet 0] in
  rops_ok (-2) 3 ops 0 = true /\
  match r_run rust_policy (-2) 3 (REnter :: ops) [] rtape0 with
  | TOk (log, tf) => vals_of log = [0; 7; 0; 0; 7] /\ t_size tf = 112
  | _ => False
  end.
Proof. vm_compute. repeat split; reflexivity. Qed.

(** a reused context: the tape already exists when the program is entered (some range was made
    accessible before, so the entry request may stick out of the allocation on both sides) *)
Theorem C06_protocol_safe_reused : forall pol, PolicyOK pol -> forall mn mx, - MAG <= mn <= 0 -> 0 <= mx < MAG ->
  forall a b ops allocs, rops_ok mn mx ops 0 = true ->
  match r_run pol mn mx (RPre a b :: REnter :: ops) allocs rtape0 with
  | TOk (log, _) => vals_of log = r_spec ops (fun _ => 0) 0
  | RawOob _ => False
  | TooLarge | AllocFail => True
  end.
Proof. exact protocol_safe_reused. Qed.

Print Assumptions C06_protocol_safe.
Print Assumptions C06_protocol_safe_reused.
Print Assumptions C06_jit_slow_path.
