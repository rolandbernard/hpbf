(** * Expr.v — model of [ir::Expr] (src/ir.rs:87-726): sums of products of cell variables
    with coefficients in Z/2^w (property C15).  Every public function is transcribed as written
    (including the unsorted single-part path of [mul]); hash maps keyed by variable lists become
    association lists followed by the same final [sort_by vars].  No proofs here. *)

From Coq Require Import ZArith List Bool.
From HPBF Require Import Cell.
Import ListNotations.
Open Scope Z_scope.

Definition part := (Z * list Z)%type.       (* (coef, vars) *)
Definition expr := list part.

(** lexicographic order on variable lists = [Ord] of slices of [isize] *)
Fixpoint lcmp (a b : list Z) : comparison :=
  match a, b with
  | [], [] => Eq
  | [], _ :: _ => Lt
  | _ :: _, [] => Gt
  | x :: a', y :: b' => match x ?= y with Eq => lcmp a' b' | c => c end
  end.

Fixpoint list_eqb (a b : list Z) : bool :=
  match a, b with
  | [], [] => true
  | x :: a', y :: b' => (x =? y) && list_eqb a' b'
  | _, _ => false
  end.

Fixpoint mem (v : Z) (l : list Z) : bool :=
  match l with [] => false | x :: t => (x =? v) || mem v t end.

Fixpoint count (v : Z) (l : list Z) : nat :=
  match l with [] => O | x :: t => if x =? v then S (count v t) else count v t end.

(** [Vec::dedup]: remove consecutive repetitions *)
Fixpoint dedup (l : list Z) : list Z :=
  match l with
  | [] => []
  | x :: t => match t with
              | [] => [x]
              | y :: _ => if x =? y then dedup t else x :: dedup t
              end
  end.

(** [vars.sort()] *)
Fixpoint insert_z (x : Z) (l : list Z) : list Z :=
  match l with [] => [x] | y :: t => if x <=? y then x :: l else y :: insert_z x t end.
Definition sort_z (l : list Z) : list Z := fold_right insert_z [] l.

(** [parts.sort_by(|a, b| a.vars.cmp(&b.vars))] — stable *)
Fixpoint insert_part (p : part) (l : expr) : expr :=
  match l with
  | [] => [p]
  | q :: t => match lcmp (snd p) (snd q) with
              | Gt => q :: insert_part p t
              | _ => p :: l
              end
  end.
Definition sort_parts (l : expr) : expr := fold_right insert_part [] l.

Definition nonzero (p : part) : bool := negb (fst p =? 0).

(** ** constructors *)
Definition e_val (c : Z) : expr := if c =? 0 then [] else [(c, [])].
Definition e_var (v : Z) : expr := [(1, [v])].

(** ** evaluation ([evaluate]) *)
Definition eval_part (w : Z) (get : Z -> Z) (p : part) : Z :=
  fold_left (fun pv v => wmul w pv (get v)) (snd p) (fst p).
Definition eval (w : Z) (e : expr) (get : Z -> Z) : Z :=
  fold_left (fun val p => wadd w val (eval_part w get p)) e 0.

(** ** add (merge of two sorted part lists) *)
Fixpoint e_add (w : Z) (a b : expr) : expr :=
  match a with
  | [] => b
  | pa :: a' =>
      (fix go (b : expr) : expr :=
         match b with
         | [] => pa :: a'
         | pb :: b' =>
             match lcmp (snd pa) (snd pb) with
             | Lt => pa :: e_add w a' (pb :: b')
             | Gt => pb :: go b'
             | Eq => let c := wadd w (fst pa) (fst pb) in
                     if c =? 0 then e_add w a' b' else (c, snd pa) :: e_add w a' b'
             end
         end) b
  end.

(** ** mul *)
(** [retain_mut(|p| { p.vars.extend(q.vars); p.coef *= q.coef; p.coef != 0 })] *)
Definition scale_parts (w : Z) (ps : expr) (q : part) : expr :=
  filter nonzero (map (fun p => (wmul w (fst p) (fst q), snd p ++ snd q)) ps).

Definition amap := list (list Z * Z).
Fixpoint acc_add (w : Z) (k : list Z) (c : Z) (m : amap) : amap :=
  match m with
  | [] => [(k, wadd w 0 c)]
  | (k', c') :: m' => if list_eqb k k' then (k', wadd w c' c) :: m' else (k', c') :: acc_add w k c m'
  end.
Definition amap_parts (m : amap) : expr :=
  sort_parts (filter nonzero (map (fun kc => (snd kc, fst kc)) m)).

Definition mul_general (w : Z) (a b : expr) : expr :=
  amap_parts
    (fold_left (fun m pa =>
       fold_left (fun m pb => acc_add w (sort_z (snd pa ++ snd pb)) (wmul w (fst pa) (fst pb)) m) b m) a []).

Definition e_mul (w : Z) (a b : expr) : expr :=
  match a, b with
  | [], _ => []
  | _, [] => []
  | [q], _ => scale_parts w b q
  | _, [q] => scale_parts w a q
  | _, _ => mul_general w a b
  end.

(** ** neg, half *)
Definition e_neg (w : Z) (a : expr) : expr := map (fun p => (wneg w (fst p), snd p)) a.
Definition e_half (w : Z) (a : expr) : option expr :=
  if forallb (fun p => negb (is_odd (fst p))) a
  then Some (map (fun p => (wshr w (fst p) 1, snd p)) a) else None.

(** ** observers and decompositions *)
Definition e_is_zero (a : expr) : bool := match a with [] => true | _ => false end.
Definition e_add_count (a : expr) : nat := pred (length a).
Definition e_op_count (w : Z) (a : expr) : nat :=
  pred (Nat.add (fold_left (fun n p => Nat.add n (Nat.mul 2 (length (snd p)))) a O)
                (length (filter (fun p => negb (fst p =? 1) && negb (fst p =? neg_one w)) a))).

Definition e_constant (a : expr) : option Z :=
  match a with
  | [] => Some 0
  | [(c, [])] => Some c
  | _ => None
  end.

Definition is_single (v : Z) (p : part) : bool :=
  match snd p with [x] => x =? v | _ => false end.

Definition e_inc_of (a : expr) (v : Z) : option expr :=
  if existsb (fun p => (fst p =? 1) && is_single v p) a
     && forallb (fun p => negb (mem v (snd p)) || (length (snd p) =? 1)%nat) a
  then Some (filter (fun p => negb (is_single v p)) a)
  else None.

Definition e_prod_inc_of (a : expr) (v : Z) : option (expr * Z) :=
  if forallb (fun p => negb (mem v (snd p)) || (length (snd p) =? 1)%nat) a
  then Some (filter (fun p => negb (is_single v p)) a,
             fold_left (fun m p => if is_single v p then fst p else m) a 0)
  else None.

Definition e_const_inc_of (a : expr) (v : Z) : option Z :=
  match a with
  | [(c, [x])] => if (c =? 1) && (x =? v) then Some 0 else None
  | [(c0, []); (c1, [x])] => if (c1 =? 1) && (x =? v) then Some c0 else None
  | _ => None
  end.

Definition remove_var (v : Z) (l : list Z) : list Z := filter (fun x => negb (x =? v)) l.

(** the parts with [v] removed are added one by one ([res = res.add(part)]): removing a variable
    can change the order of the parts and make two variable lists equal *)
Definition e_prod_of (w : Z) (a : expr) (v : Z) : option expr :=
  if forallb (fun p => (count v (snd p) =? 1)%nat) a
  then Some (fold_left (fun acc p => e_add w acc [(fst p, remove_var v (snd p))]) a [])
  else None.

Definition e_constant_part (a : expr) : Z :=
  match a with
  | (c, []) :: _ => c
  | _ => 0
  end.

Definition e_identity (a : expr) : option Z :=
  match a with
  | [(c, [x])] => if c =? 1 then Some x else None
  | _ => None
  end.

Definition e_variables (a : expr) : list Z := flat_map (fun p => snd p) a.

(** [split_along]: [constant] is a set of variables, [linear] a map from variables to increments *)
Fixpoint assoc_z {A} (v : Z) (m : list (Z * A)) : option A :=
  match m with [] => None | (k, x) :: m' => if k =? v then Some x else assoc_z v m' end.

Definition e_split_along (w : Z) (a : expr) (constant : list Z) (linear : list (Z * expr))
  : option (expr * expr * list (expr * expr)) :=
  let isc v := mem v constant in
  let isl v := match assoc_z v linear with Some _ => true | None => false end in
  fold_left (fun acc p =>
    match acc with
    | None => None
    | Some (cp, op, lp) =>
        if forallb isc (snd p) then Some (cp ++ [p], op, lp)
        else if forallb (fun v => isc v || isl v) (snd p)
                && (length (filter (fun x => negb (isc x)) (snd p)) =? 1)%nat
        then match filter (fun x => negb (isc x)) (snd p) with
             | lv :: _ =>
                 match assoc_z lv linear with
                 | Some li => Some (cp, op, lp ++ [([p], e_mul w [(fst p, remove_var lv (snd p))] li)])
                 | None => None
                 end
             | [] => None
             end
        else Some (cp, op ++ [p], lp)
    end) a (Some ([], [], [])).

(** ** normalize *)
Definition half_mod (w : Z) : Z := wshl w 1 (w - 1).

(** phase 1 *)
(** chunk_by sums every later element of a run into the first; written iteratively in Rust.
    Equivalent formulation: fold from the left keeping the head of the current run. *)
Fixpoint chunk_sum (w : Z) (head : option part) (l : expr) : expr :=
  match l with
  | [] => match head with Some h => [h] | None => [] end
  | p :: t =>
      match head with
      | None => chunk_sum w (Some p) t
      | Some h => if list_eqb (snd h) (snd p)
                  then chunk_sum w (Some (wadd w (fst h) (fst p), snd h)) t
                  else h :: chunk_sum w (Some p) t
      end
  end.

Definition norm_phase1 (w : Z) (a : expr) : expr :=
  let hm := half_mod w in
  if existsb (fun p => (2 <=? length (snd p))%nat && (fst p =? hm)) a then
    let a' := map (fun p => if fst p =? hm then (fst p, dedup (snd p)) else p) a in
    let need := existsb (fun pq => negb (length (snd (fst pq)) =? length (snd (snd pq)))%nat) (combine a a') in
    if need then filter nonzero (chunk_sum w None (sort_parts a')) else a'
  else a.

(** phase 2: arrays are modelled as lists with functional update *)
Fixpoint upd_coef (i : nat) (c : Z) (l : expr) : expr :=
  match l, i with
  | [], _ => []
  | p :: t, O => (c, snd p) :: t
  | p :: t, S i' => p :: upd_coef i' c t
  end.
Definition coef_at (l : expr) (i : nat) : Z := fst (nth i l (0, [])).
Definition vars_at (l : expr) (i : nat) : list Z := snd (nth i l (0, [])).

Fixpoint assoc_l {A} (k : list Z) (m : list (list Z * A)) : option A :=
  match m with [] => None | (k', x) :: m' => if list_eqb k k' then Some x else assoc_l k m' end.
Fixpoint assoc_l_push (k : list Z) (i : nat) (m : list (list Z * list nat)) : list (list Z * list nat) :=
  match m with
  | [] => [(k, [i])]
  | (k', x) :: m' => if list_eqb k k' then (k', x ++ [i]) :: m' else (k', x) :: assoc_l_push k i m'
  end.

Definition norm_cond (w : Z) (ci cj : Z) : bool :=
  let hm := half_mod w in
  let hp := wadd w hm 1 in
  let hmm := wadd w hm (neg_one w) in
  (((ci <=? hp) || (hmm <=? ci)) && ((1 <? cj) || (cj <? neg_one w)))
  || (((1 <? ci) && (ci <? neg_one w)) && ((cj <=? hp) || (hmm <=? cj))).

(** the inner loop over the earlier parts [others] with the same reduced variable list as part [i] *)
Definition phase2_inner (w : Z) (i : nat) (others : list nat) (pn : expr * bool) : expr * bool :=
  fold_left (fun pn j =>
    let ps := fst pn in
    if norm_cond w (coef_at ps i) (coef_at ps j) then
      let ni := wadd w (coef_at ps i) (half_mod w) in
      let nj := wadd w (coef_at ps j) (half_mod w) in
      (upd_coef j nj (upd_coef i ni ps), snd pn || (ni =? 0) || (nj =? 0))
    else pn) others pn.

Definition phase2_step (w : Z) (st : expr * list (list Z * list nat) * bool) (i : nat)
  : expr * list (list Z * list nat) * bool :=
  let parts := fst (fst st) in
  let by_red := snd (fst st) in
  let need := snd st in
  if (length (vars_at parts i) =? 0)%nat then st
  else
    let key := dedup (vars_at parts i) in
    match assoc_l key by_red with
    | Some others =>
        let r := phase2_inner w i others (parts, need) in
        (fst r, assoc_l_push key i by_red, snd r)
    | None => (parts, assoc_l_push key i by_red, need)
    end.

Definition norm_phase2 (w : Z) (a : expr) : expr :=
  let hm := half_mod w in
  let hp := wadd w hm 1 in
  let hmm := wadd w hm (neg_one w) in
  if existsb (fun p => negb (length (snd p) =? 0)%nat && ((fst p <=? hp) || (hmm <=? fst p))) a then
    let r := fold_left (phase2_step w) (seq 0 (length a)) (a, [], false) in
    if snd r then filter nonzero (fst (fst r)) else fst (fst r)
  else a.

Definition e_normalize (w : Z) (a : expr) : expr :=
  if negb (e_is_zero a) && existsb (fun p => (2 <=? length (snd p))%nat) a
  then norm_phase2 w (norm_phase1 w a)
  else a.

(** ** symbolic substitution *)
Definition scale_sorted (w : Z) (ps : expr) (q : part) : expr :=
  filter nonzero (map (fun p => (wmul w (fst p) (fst q), sort_z (snd p ++ snd q))) ps).

Definition amap_list (m : amap) : expr := filter nonzero (map (fun kc => (snd kc, fst kc)) m).

(** [mul_parts]; the iteration order of the intermediate hash map does not reach the result of
    [symb_evaluate] (keys are unique and the final list is sorted); the model uses insertion order *)
Definition mul_parts (w : Z) (left right : expr) : expr :=
  match left, right with
  | [], _ => []
  | _, [] => []
  | [q], _ => scale_sorted w right q
  | _, [q] => scale_sorted w left q
  | _, _ =>
      amap_list
        (fold_left (fun m pr =>
           fold_left (fun m pl => acc_add w (sort_z (snd pr ++ snd pl)) (wmul w (fst pr) (fst pl)) m) left m) right [])
  end.

Definition e_symb_evaluate (w : Z) (a : expr) (func : Z -> option expr) : option expr :=
  match e_identity a with
  | Some v => func v
  | None =>
      match e_constant a with
      | Some c => Some (e_val c)
      | None =>
          let step (acc : option amap) (p : part) : option amap :=
            match acc with
            | None => None
            | Some m =>
                match snd p with
                | [] => Some (acc_add w [] (fst p) m)
                | [v] =>
                    match func v with
                    | Some ev => Some (fold_left (fun m vp => acc_add w (snd vp) (wmul w (fst p) (fst vp)) m) ev m)
                    | None => None
                    end
                | v :: vs =>
                    match func v with
                    | None => None
                    | Some ev =>
                        match fold_left (fun partial v' =>
                                match partial with
                                | None => None
                                | Some pr => match func v' with Some e' => Some (mul_parts w pr e') | None => None end
                                end) vs (Some ev) with
                        | None => None
                        | Some partial =>
                            Some (fold_left (fun m vp => acc_add w (snd vp) (wmul w (fst p) (fst vp)) m) partial m)
                        end
                    end
                end
            end in
          match fold_left step a (Some []) with
          | Some m => Some (amap_parts m)
          | None => None
          end
      end
  end.

(** ** shape predicates assumed by the decompositions [den_inc_of], [den_prod_inc_of],
    [den_constant_part] of ExprProofs.v, which ExprShape.v derives for every [built] expression
    (boolean versions, evaluated on every expression the correspondence run reaches) *)
Definition singles_unique_b (v : Z) (a : expr) : bool := (length (filter (is_single v) a) <=? 1)%nat.
Definition const_first_b (a : expr) : bool := forallb (fun p => negb (length (snd p) =? 0)%nat) (tl a).
Definition shape_ok_b (a : expr) : bool :=
  const_first_b a && forallb (fun v => singles_unique_b v a) (e_variables a).
