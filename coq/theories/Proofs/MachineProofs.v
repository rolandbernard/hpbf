(** * MachineProofs.v — the canonical small-step machine: its step function by kind of command,
    composition of runs, and soundness of state-repeat divergence certificates (property C05). *)

From Coq Require Import ZArith List Bool Lia FMapPositive.
From HPBF Require Import Cell IO BF Machines.
Import ListNotations.
Open Scope Z_scope.

Definition simple_cmd (x : cmd) : Prop := match x with Loop _ => False | _ => True end.

Lemma simple_or_loop : forall x, simple_cmd x \/ exists body, x = Loop body.
Proof. destruct x; try (left; exact I). right. eexists. reflexivity. Qed.

Lemma bf_step_simple : forall w e x rest k s, simple_cmd x ->
  bf_step w e {| c_ctl := x :: rest; c_kont := k; c_st := s |} =
  match bf_simple w e x s with
  | inl s' => Next {| c_ctl := rest; c_kont := k; c_st := s' |}
  | inr s' => Final (Stopped s')
  end.
Proof. intros w e x rest k s H. destruct x; try reflexivity. contradiction. Qed.

Lemma bf_step_loop : forall w e body rest k s,
  bf_step w e {| c_ctl := Loop body :: rest; c_kont := k; c_st := s |} =
  Next (if cur s =? 0 then {| c_ctl := rest; c_kont := k; c_st := s |}
        else {| c_ctl := body; c_kont := (body, rest) :: k; c_st := s |}).
Proof. intros. unfold bf_step. cbn [c_ctl c_kont c_st]. destruct (cur s =? 0); reflexivity. Qed.

(** the end of a loop body re-tests the loop: a frame [(body, rest)] stands for [Loop body :: rest] *)
Lemma bf_step_pop : forall w e body rest k s,
  bf_step w e {| c_ctl := []; c_kont := (body, rest) :: k; c_st := s |} =
  bf_step w e {| c_ctl := Loop body :: rest; c_kont := k; c_st := s |}.
Proof. reflexivity. Qed.

Lemma bf_steps_next : forall w e n c c', bf_step w e c = Next c' -> bf_steps w e (S n) c = bf_steps w e n c'.
Proof. intros w e n c c' H. cbn [bf_steps]. rewrite H. reflexivity. Qed.

Lemma bf_steps_final : forall w e n c o, bf_step w e c = Final o -> bf_steps w e (S n) c = o.
Proof. intros w e n c o H. cbn [bf_steps]. rewrite H. reflexivity. Qed.

Lemma cfg_after_add : forall w e n m c,
  bf_cfg_after w e (n + m) c =
  match bf_cfg_after w e n c with Some c' => bf_cfg_after w e m c' | None => None end.
Proof.
  intros w e n m. induction n as [|n IH]; intros c; [reflexivity|].
  cbn [Nat.add bf_cfg_after]. destruct (bf_step w e c) as [c1|o]; [apply IH|reflexivity].
Qed.

Lemma cfg_after_le : forall w e n m c, (n <= m)%nat ->
  (exists c', bf_cfg_after w e m c = Some c') -> exists c', bf_cfg_after w e n c = Some c'.
Proof.
  intros w e n m c L [c' H]. replace m with (n + (m - n))%nat in H by lia. rewrite cfg_after_add in H.
  destruct (bf_cfg_after w e n c) as [c1|]; [exists c1; reflexivity|discriminate].
Qed.

Lemma steps_of_cfg_after : forall w e n c c',
  bf_cfg_after w e n c = Some c' -> bf_steps w e n c = OutOfFuel (c_st c').
Proof.
  intros w e n. induction n as [|n IH]; intros c c' H; simpl in *.
  - injection H as <-. reflexivity.
  - destruct (bf_step w e c) as [c1|o]; [apply IH, H|discriminate].
Qed.

Lemma cmd_eqb_eq : forall a b, cmd_eqb a b = true -> a = b.
Proof.
  fix IH 1. intros a b H.
  destruct a as [| | | | | |x]; destruct b as [| | | | | |y]; simpl in H; try discriminate; try reflexivity.
  f_equal. revert y H. induction x as [|c x IHx]; intros y H; destruct y as [|d y]; try discriminate; [reflexivity|].
  apply andb_prop in H. destruct H as [H1 H2].
  rewrite (IH c d H1), (IHx y H2). reflexivity.
Qed.

Lemma cmds_eqb_eq : forall x y, cmds_eqb x y = true -> x = y.
Proof.
  induction x as [|c x IH]; intros y H; destruct y as [|d y]; simpl in H; try discriminate; [reflexivity|].
  apply andb_prop in H. destruct H as [H1 H2]. rewrite (cmd_eqb_eq c d H1), (IH y H2). reflexivity.
Qed.

Lemma kont_eqb_eq : forall x y, kont_eqb x y = true -> x = y.
Proof.
  induction x as [|[a1 b1] x IH]; intros y H; destruct y as [|[a2 b2] y]; simpl in H; try discriminate; [reflexivity|].
  apply andb_prop in H. destruct H as [H12 H3]. apply andb_prop in H12. destruct H12 as [H1 H2].
  rewrite (cmds_eqb_eq a1 a2 H1), (cmds_eqb_eq b1 b2 H2), (IH y H3). reflexivity.
Qed.

Lemma tmap_sub_spec : forall a b, tmap_sub a b = true ->
  forall p v, PositiveMap.find p a = Some v -> tgetp b p = v.
Proof.
  intros a b H p v F. unfold tmap_sub in H. rewrite forallb_forall in H.
  apply PositiveMap.elements_correct in F. specialize (H (p, v) F). simpl in H. apply Z.eqb_eq in H. exact H.
Qed.

Lemma tmap_eqb_ext : forall a b, tmap_eqb a b = true -> forall p, tgetp a p = tgetp b p.
Proof.
  intros a b H p. unfold tmap_eqb in H. apply andb_prop in H. destruct H as [H1 H2].
  unfold tgetp at 1. destruct (PositiveMap.find p a) as [v|] eqn:F.
  - symmetry. apply (tmap_sub_spec a b H1 p v F).
  - unfold tgetp. destruct (PositiveMap.find p b) as [v'|] eqn:G; [|reflexivity].
    pose proof (tmap_sub_spec b a H2 p v' G) as E. unfold tgetp in E. rewrite F in E. exact E.
Qed.

Lemma key_of_inj : forall a b, key_of a = key_of b -> a = b.
Proof. intros [|p|p] [|q|q] H; simpl in H; try discriminate; try reflexivity; injection H as <-; reflexivity. Qed.

Lemma tget_tset : forall t k v k', tget (tset t k v) k' = if k =? k' then v else tget t k'.
Proof.
  intros t k v k'. unfold tget, tset. destruct (k =? k') eqn:E.
  - apply Z.eqb_eq in E. subst. rewrite PositiveMap.gss. reflexivity.
  - apply Z.eqb_neq in E. rewrite PositiveMap.gso; [reflexivity|].
    intros H. apply E. symmetry. apply key_of_inj. exact H.
Qed.

Lemma tget_empty : forall k, tget tempty k = 0.
Proof. intros k. unfold tget, tempty. rewrite PositiveMap.gempty. reflexivity. Qed.

(** same cells; not [=], because the tries are not canonical: an absent key reads as a stored 0 *)
Definition teq (a b : tmap) : Prop := forall k, tget a k = tget b k.

Definition fault_free (e : env) : Prop := in_absent e = false /\ in_fail_at e = None /\ out_fail_at e = None.

Lemma env_fault_free_spec : forall e, env_fault_free e = true -> fault_free e.
Proof.
  intros e. unfold env_fault_free, fault_free.
  destruct (in_absent e), (in_fail_at e), (out_fail_at e); intros H; try discriminate H. repeat split.
Qed.

(** cursors are equivalent when equal or both beyond the end of the input: without injected
    failures the answer to a request depends on nothing else, and they stay equivalent.
    ([Machines.eff_in_pos] of a state is this minimum for its [io].) *)
Definition same_cursor (e : env) (i1 i2 : iost) : Prop :=
  Nat.min (in_pos i1) (length (input e)) = Nat.min (in_pos i2) (length (input e)).

Lemma output_equiv : forall e i1 i2 b, fault_free e -> same_cursor e i1 i2 ->
  exists j1 j2, do_output e i1 b = IoOk tt j1 /\ do_output e i2 b = IoOk tt j2 /\ same_cursor e j1 j2.
Proof.
  intros e i1 i2 b (_ & _ & F) C. unfold do_output. rewrite F.
  destruct (negb (out_present e)); do 2 eexists; repeat split; exact C.
Qed.

Lemma input_equiv : forall e i1 i2, fault_free e -> same_cursor e i1 i2 ->
  exists b j1 j2, do_input e i1 = IoOk b j1 /\ do_input e i2 = IoOk b j2 /\ same_cursor e j1 j2.
Proof.
  intros e i1 i2 (F1 & F2 & _) C. unfold do_input. rewrite F1, F2. unfold same_cursor in *.
  assert (D : in_pos i1 = in_pos i2 \/ (length (input e) <= in_pos i1 /\ length (input e) <= in_pos i2)%nat) by lia.
  destruct D as [<-|[L1 L2]].
  - destruct (nth_error (input e) (in_pos i1)); do 3 eexists; repeat split.
  - apply nth_error_None in L1 as N1. apply nth_error_None in L2 as N2. rewrite N1, N2.
    do 3 eexists. repeat split. cbn [in_pos].
    rewrite (Nat.min_r _ _ (le_S _ _ L1)), (Nat.min_r _ _ (le_S _ _ L2)). reflexivity.
Qed.

(** the part of [ceq] below that concerns the states *)
Definition seq_st (e : env) (s1 s2 : bfst) : Prop :=
  teq (tape s1) (tape s2) /\ ptr s1 = ptr s2 /\ same_cursor e (io s1) (io s2).

Lemma teq_tset : forall a b k v, teq a b -> teq (tset a k v) (tset b k v).
Proof. intros a b k v H k'. rewrite !tget_tset. destruct (k =? k'); [reflexivity|apply H]. Qed.

Lemma simple_equiv : forall w e x s1 s2, fault_free e -> seq_st e s1 s2 ->
  match bf_simple w e x s1, bf_simple w e x s2 with
  | inl a, inl b => seq_st e a b
  | inr _, inr _ => True
  | _, _ => False
  end.
Proof.
  intros w e x [t1 p i1] [t2 p2 i2] F (T & P & I). cbn [tape ptr io] in T, P, I. subst p2.
  destruct x; cbn [bf_simple]; unfold cur; cbn [set_cur move set_io tape ptr io]; rewrite <- ?(T p).
  - (* Inc *) repeat split; [apply teq_tset, T|exact I].
  - (* Dec *) repeat split; [apply teq_tset, T|exact I].
  - (* Left *) repeat split; assumption.
  - (* Right *) repeat split; assumption.
  - destruct (output_equiv e i1 i2 (into_u8 w (tget t1 p)) F I) as (j1 & j2 & -> & -> & J).
    repeat split; assumption.
  - destruct (input_equiv e i1 i2 F I) as (b & j1 & j2 & -> & -> & J).
    repeat split; [apply teq_tset, T|exact J].
  - (* Loop *) repeat split; assumption.
Qed.

(** what [Machines.cfg_equiv e c1 c2 = true] establishes ([cfg_equiv_ceq]) *)
Record ceq (e : env) (c1 c2 : bfcfg) : Prop := {
  q_ctl : c_ctl c1 = c_ctl c2;
  q_kont : c_kont c1 = c_kont c2;
  q_tape : teq (tape (c_st c1)) (tape (c_st c2));
  q_ptr : ptr (c_st c1) = ptr (c_st c2);
  q_in : eff_in_pos e (c_st c1) = eff_in_pos e (c_st c2)
}.

Lemma cfg_equiv_ceq : forall e c1 c2, cfg_equiv e c1 c2 = true -> ceq e c1 c2.
Proof.
  intros e c1 c2 H. unfold cfg_equiv in H.
  apply andb_prop in H as [H T]. apply andb_prop in H as [H B].
  apply andb_prop in H as [H A]. apply andb_prop in H as [P N]. constructor.
  - apply cmds_eqb_eq, A.
  - apply kont_eqb_eq, B.
  - intros k. apply (tmap_eqb_ext _ _ T (key_of k)).
  - apply Z.eqb_eq, P.
  - apply Nat.eqb_eq, N.
Qed.

Lemma ceq_intro : forall e ctl k s1 s2, seq_st e s1 s2 ->
  ceq e {| c_ctl := ctl; c_kont := k; c_st := s1 |} {| c_ctl := ctl; c_kont := k; c_st := s2 |}.
Proof. intros e ctl k s1 s2 (T & P & I). constructor; try reflexivity; assumption. Qed.

Definition step_equiv_res (e : env) (r1 r2 : step_res bfcfg) : Prop :=
  match r1, r2 with
  | Next a, Next b => ceq e a b
  | Final _, Final _ => True
  | _, _ => False
  end.

Lemma step_equiv : forall w e c1 c2, fault_free e -> ceq e c1 c2 ->
  step_equiv_res e (bf_step w e c1) (bf_step w e c2).
Proof.
  intros w e [ctl k s1] [ctl2 k2 s2] F [A B T P N]. cbn [c_ctl c_kont c_st] in A, B, T, P, N. subst ctl2 k2.
  assert (S : seq_st e s1 s2) by (repeat split; assumption).
  assert (C : cur s1 = cur s2) by (unfold cur; rewrite P; apply T).
  assert (LOOP : forall body rest k,
    step_equiv_res e (bf_step w e {| c_ctl := Loop body :: rest; c_kont := k; c_st := s1 |})
                     (bf_step w e {| c_ctl := Loop body :: rest; c_kont := k; c_st := s2 |})).
  { intros body rest k'. rewrite !bf_step_loop, <- C.
    destruct (cur s1 =? 0); apply ceq_intro, S. }
  destruct ctl as [|x rest].
  - destruct k as [|[body rest] k]; [exact I|]. rewrite !bf_step_pop. apply LOOP.
  - destruct (simple_or_loop x) as [Sx|[body ->]]; [|apply LOOP].
    rewrite !(bf_step_simple w e x rest k _ Sx). pose proof (simple_equiv w e x s1 s2 F S) as E.
    destruct (bf_simple w e x s1), (bf_simple w e x s2); try contradiction; [apply ceq_intro, E|exact I].
Qed.

Lemma run_equiv : forall w e n c1 c2, fault_free e -> ceq e c1 c2 ->
  match bf_cfg_after w e n c1, bf_cfg_after w e n c2 with
  | Some a, Some b => ceq e a b
  | None, None => True
  | _, _ => False
  end.
Proof.
  intros w e n. induction n as [|n IH]; intros c1 c2 F Q; simpl; [exact Q|].
  pose proof (step_equiv w e c1 c2 F Q) as S.
  destruct (bf_step w e c1) as [a|o1]; destruct (bf_step w e c2) as [b|o2]; try contradiction; [|exact I].
  apply IH; assumption.
Qed.

Theorem repeat_never_ends : forall w e c d cj, fault_free e ->
  bf_cfg_after w e (S d) c = Some cj -> ceq e c cj ->
  forall n, exists c', bf_cfg_after w e n c = Some c'.
Proof.
  intros w e c d cj F R Q n. induction n as [|n [c' Hc']]; [exists c; reflexivity|].
  (* alive after [n] steps, so is the equivalent [cj], which is [c] after [S d + n] steps *)
  apply (cfg_after_le w e (S n) (S d + n)); [lia|]. rewrite cfg_after_add, R.
  pose proof (run_equiv w e n c cj F Q) as E. rewrite Hc' in E.
  destruct (bf_cfg_after w e n cj) as [b|]; [exists b; reflexivity|contradiction].
Qed.

Theorem repeat_diverges : forall w e c0 i d ci cj, fault_free e ->
  bf_cfg_after w e i c0 = Some ci -> bf_cfg_after w e (S d) ci = Some cj -> ceq e ci cj ->
  forall n, exists s, bf_steps w e n c0 = OutOfFuel s.
Proof.
  intros w e c0 i d ci cj F Ri Rj Q n.
  destruct (cfg_after_le w e n (i + n) c0) as [c' Hc']; [lia| |].
  - rewrite cfg_after_add, Ri. apply (repeat_never_ends w e ci d cj F Rj Q).
  - exists (c_st c'). apply steps_of_cfg_after, Hc'.
Qed.

(** C05: a certificate [(i, d)] that [cert_ok] accepts shows that the canonical run of [p] never ends *)
Theorem state_repeat_diverges : forall w e p i d,
  cert_ok w e p i d = true ->
  forall n, exists s, bf_steps w e n {| c_ctl := p; c_kont := []; c_st := bf0 |} = OutOfFuel s.
Proof.
  intros w e p i d H. unfold cert_ok in H. apply andb_prop in H. destruct H as [HF H].
  destruct (bf_cfg_after w e i _) as [ci|] eqn:Ri; [|discriminate].
  destruct (bf_cfg_after w e (S d) ci) as [cj|] eqn:Rj; [|discriminate].
  exact (repeat_diverges w e _ i d ci cj (env_fault_free_spec e HF) Ri Rj (cfg_equiv_ceq e ci cj H)).
Qed.
