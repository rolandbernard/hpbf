(** * TapeProofs.v — the tape model refines an unbounded zero-initialised array (C09, C17).
    [Inv t s base]: logical cell [k] of the specification lives at raw index [k + base].
    [yields P r]: [r] is no raw out-of-bounds access and its value satisfies [P]; [yields_bind]
    follows the error-propagating matches of the model. *)

From Coq Require Import ZArith List Bool Lia.
From HPBF Require Import Tape.
Import ListNotations.
Open Scope Z_scope.

(** What the proofs use of the growth computation of [make_accessible] (runtime.rs:96-103, the choice
    of [new_size] and [added_below]): when the request misses [nb] cells below and [na] above, the
    old block lands [ab >= nb] cells into the new buffer and at least [na] new cells follow it. *)
Definition PolicyOK (pol : policy) : Prop :=
  forall size nb na, 0 <= size -> 0 <= nb -> 0 <= na -> 0 < nb + na ->
    let '(ns, ab) := pol size nb na in
    nb <= ab /\ na <= ns - size - ab /\ 0 <= ab.

Lemma rust_policy_ok : PolicyOK rust_policy.
Proof.
  intros size nb na Hs Hb Ha Hpos. unfold rust_policy.
  (* of the extension [ex = max (size / 2) (nb + na)] only [nb + na <= ex] is needed *)
  pose proof (Z.le_max_r (size / 2) (nb + na)) as Hex. revert Hex.
  generalize (Z.max (size / 2) (nb + na)). intros ex Hex. cbv beta zeta iota.
  destruct (Z.eqb_spec nb 0); [lia|]. destruct (Z.eqb_spec na 0); [lia|].
  (* two-sided: [min (max nb half) (ex - na)] is in [nb, ex - na] whatever [half] is *)
  generalize ((size + ex - size) / 2). intros half. lia.
Qed.

Lemma in_range_spec : forall lo x hi, BoolSpec (lo <= x < hi) (~ lo <= x < hi) ((lo <=? x) && (x <? hi)).
Proof. intros. destruct (Z.leb_spec lo x), (Z.ltb_spec x hi); constructor; lia. Qed.

Definition yields {A} (P : A -> Prop) (r : tres A) : Prop :=
  match r with TOk a => P a | RawOob _ => False | _ => True end.

Lemma yields_bind : forall {A B} {P : A -> Prop} {Q : B -> Prop} {r} {f : A -> tres B},
  yields P r -> (forall a, P a -> yields Q (f a)) ->
  yields Q (match r with TOk a => f a | RawOob i => RawOob i | TooLarge => TooLarge | AllocFail => AllocFail end).
Proof. intros A B P Q [a|i| |] f H K; try exact H. exact (K a H). Qed.

Lemma yields_impl : forall {A} {P Q : A -> Prop} {r}, yields P r -> (forall a, P a -> Q a) -> yields Q r.
Proof. intros A P Q [a|i| |] H K; try exact H. exact (K a H). Qed.

Definition not_oob {A} (r : tres A) : Prop := match r with RawOob _ => False | _ => True end.

Lemma yields_not_oob : forall {A} {P : A -> Prop} {r}, yields P r -> not_oob r.
Proof. intros A P [a|i| |] H; try exact I. exact H. Qed.

(** the constants stay folded: [lia] sees them as atoms related by these facts only *)
Lemma word_bounds : 0 < MAG /\ 0 < SIZE_LIMIT /\ 4 * MAG + 2 * SIZE_LIMIT <= U64.
Proof. split; [reflexivity|split; [reflexivity|discriminate]]. Qed.

Lemma wrap_wrap_add : forall x d, wrap64 (wrap64 x + d) = wrap64 (x + d).
Proof. intros. apply Z.add_mod_idemp_l. pose proof word_bounds. lia. Qed.

Lemma wrap_wrap : forall x, wrap64 (wrap64 x) = wrap64 x.
Proof. intros. apply Z.mod_mod. pose proof word_bounds. lia. Qed.

(** [y] fits in an [isize]: [- U64 <= 2 * y < U64] *)
Lemma wrap_signed : forall y, - U64 <= 2 * y < U64 -> wrap64 y = if y <? 0 then y + U64 else y.
Proof.
  intros y Hy. destruct (Z.ltb_spec y 0).
  - symmetry. apply (Z.mod_unique_pos y U64 (-1)); lia.
  - apply Z.mod_small. lia.
Qed.

Lemma signed_wrap : forall y, - U64 <= 2 * y < U64 -> to_signed (wrap64 y) = y.
Proof.
  intros y Hy. unfold to_signed. rewrite (wrap_signed y Hy).
  assert (Hh : 2 * 2 ^ 63 = U64) by reflexivity. revert Hh. generalize (2 ^ 63). intros h Hh.
  destruct (Z.ltb_spec y 0); [destruct (Z.ltb_spec (y + U64) h)|destruct (Z.ltb_spec y h)]; lia.
Qed.

(** an index that is negative as [isize] is beyond every buffer size as [usize] *)
Lemma wrap_test : forall y sz, - U64 <= 2 * y < U64 -> 0 <= sz < SIZE_LIMIT ->
  (wrap64 y <? sz) = ((0 <=? y) && (y <? sz)).
Proof.
  intros y sz Hy Hs. pose proof word_bounds. rewrite (wrap_signed y Hy).
  destruct (Z.ltb_spec y 0); lia.
Qed.

Lemma needed_below_spec : forall p, 0 <= needed_below p /\ 0 <= p + needed_below p.
Proof. intros. unfold needed_below. destruct (Z.ltb_spec p 0); lia. Qed.

Lemma needed_above_spec : forall e sz, 0 <= needed_above e sz /\ e - needed_above e sz <= sz.
Proof. intros. unfold needed_above. destruct (Z.ltb_spec sz e); lia. Qed.

Record Inv (t : rtape) (s : tspec) (base : Z) : Prop := {
  inv_size : 0 <= t_size t < SIZE_LIMIT;
  inv_base : 0 <= base <= t_size t;
  inv_off : t_off t = wrap64 (s_pos s + base);
  inv_pos : - MAG <= s_pos s <= MAG;
  inv_cells : forall k, s_cells s k = if (0 <=? k + base) && (k + base <? t_size t) then t_buf t (k + base) else 0;
  inv_acc : forall k, in_acc (s_acc s) k = true -> 0 <= k + base < t_size t
}.

(** [s_run] writes these records out in place; the names convert to them, so a lemma stated with a
    name applies to the goal that [cbn [s_run]] leaves *)
Definition s_move (s : tspec) (d : Z) : tspec :=
  {| s_cells := s_cells s; s_pos := s_pos s + d; s_acc := s_acc s |}.
Definition s_mark (s : tspec) (lo hi : Z) : tspec :=
  {| s_cells := s_cells s; s_pos := s_pos s; s_acc := (lo, hi) :: s_acc s |}.
Definition s_store (s : tspec) (k v : Z) : tspec :=
  {| s_cells := fun i => if i =? k then v else s_cells s i; s_pos := s_pos s; s_acc := s_acc s |}.

Lemma inv0 : Inv rtape0 spec0 0.
Proof.
  pose proof word_bounds. constructor; cbn [rtape0 spec0 t_size t_off t_buf s_pos s_cells s_acc]; try lia.
  - reflexivity.
  - intros k. destruct (_ && _); reflexivity.
  - discriminate.
Qed.

Lemma small_spec : forall x, small x = true -> - MAG <= x <= MAG.
Proof. intros x H. unfold small in H. lia. Qed.

Section WithInv.
Variables (t : rtape) (s : tspec) (base : Z).
Hypothesis HI : Inv t s base.

(** the raw index of the logical cell at offset [o] from the pointer is [s_pos s + o + base] *)
Lemma ptr_range : forall o, - MAG <= o <= MAG -> - U64 <= 2 * (s_pos s + o + base) < U64.
Proof. intros o Ho. destruct HI as [Hs Hb _ Hp _ _]. pose proof word_bounds. lia. Qed.

Lemma ptr_eq : forall o, t_ptr t o = wrap64 (s_pos s + o + base).
Proof. intros o. unfold t_ptr. rewrite (inv_off _ _ _ HI), wrap_wrap_add. f_equal. lia. Qed.

Lemma signed_off : to_signed (t_off t) = s_pos s + base.
Proof.
  rewrite (inv_off _ _ _ HI). apply signed_wrap.
  pose proof word_bounds. pose proof (ptr_range 0). lia.
Qed.

Lemma check_spec : forall o, - MAG <= o <= MAG ->
  t_check t o = ((0 <=? s_pos s + o + base) && (s_pos s + o + base <? t_size t)).
Proof. intros o Ho. unfold t_check. rewrite ptr_eq. exact (wrap_test _ _ (ptr_range o Ho) (inv_size _ _ _ HI)). Qed.

Lemma ptr_in : forall o, - MAG <= o <= MAG -> 0 <= s_pos s + o + base -> t_ptr t o = s_pos s + o + base.
Proof.
  intros o Ho Hin. rewrite ptr_eq, (wrap_signed _ (ptr_range o Ho)).
  destruct (Z.ltb_spec (s_pos s + o + base) 0); [lia|reflexivity].
Qed.

Lemma read_spec : forall o, - MAG <= o <= MAG -> t_read t o = s_cells s (s_pos s + o).
Proof.
  intros o Ho. unfold t_read. cbv zeta. change (t_ptr t o <? t_size t) with (t_check t o).
  rewrite (check_spec o Ho), (inv_cells _ _ _ HI).
  destruct (in_range_spec 0 (s_pos s + o + base) (t_size t)) as [Hin|_]; [|reflexivity].
  rewrite (ptr_in o Ho (proj1 Hin)). reflexivity.
Qed.

Lemma mov_inv : forall d, - MAG <= s_pos s + d <= MAG ->
  Inv (t_mov t d) (s_move s d) base.
Proof.
  intros d Hd. destruct HI as [Hs Hb Ho Hp Hc Ha]. constructor; try assumption.
  cbn [t_mov t_off s_move s_pos]. rewrite Ho, wrap_wrap_add. f_equal. lia.
Qed.

Lemma acc_inv : forall lo hi, 0 <= lo + base -> hi + base <= t_size t ->
  Inv t (s_mark s lo hi) base.
Proof.
  intros lo hi Hlo Hhi. destruct HI as [Hs Hb Ho Hp Hc Ha]. constructor; try assumption.
  intros k Hk. cbn [s_mark s_acc in_acc existsb fst snd] in Hk.
  destruct (in_range_spec lo k hi); [lia|]. exact (Ha k Hk).
Qed.

Lemma raw_write_spec : forall o v, - MAG <= o <= MAG -> 0 <= s_pos s + o + base < t_size t ->
  yields (fun t' => t_size t' = t_size t /\ Inv t' (s_store s (s_pos s + o) v) base) (t_raw_write t (t_ptr t o) v).
Proof.
  intros o v Ho Hin. unfold t_raw_write. rewrite (ptr_in o Ho (proj1 Hin)).
  destruct (in_range_spec 0 (s_pos s + o + base) (t_size t)); [|contradiction].
  split; [reflexivity|]. destruct HI as [Hs Hb Hoff Hp Hc Ha]. constructor; try assumption.
  intros k. cbn [s_store s_cells t_buf t_size]. rewrite Hc.
  destruct (Z.eqb_spec k (s_pos s + o)), (Z.eqb_spec (k + base) (s_pos s + o + base)),
    (in_range_spec 0 (k + base) (t_size t)); reflexivity || lia.
Qed.

(** the old block placed [ab] cells into a fresh zeroed buffer of [ns] cells *)
Lemma grown_inv : forall ns ab, 0 <= ab -> ab + t_size t <= ns < SIZE_LIMIT ->
  Inv {| t_buf := fun i => if (ab <=? i) && (i <? ab + t_size t) then t_buf t (i - ab) else 0;
         t_size := ns; t_off := wrap64 (t_off t + ab) |} s (base + ab).
Proof.
  intros ns ab Hab Hns. destruct HI as [Hs Hb Ho Hp Hc Ha]. constructor; cbn [t_buf t_size t_off]; try assumption.
  - lia.
  - lia.
  - rewrite Ho, wrap_wrap_add. f_equal. lia.
  - intros k. rewrite Hc.
    replace ((ab <=? k + (base + ab)) && (k + (base + ab) <? ab + t_size t))
      with ((0 <=? k + base) && (k + base <? t_size t)) by lia.
    destruct (in_range_spec 0 (k + base) (t_size t)).
    + destruct (in_range_spec 0 (k + (base + ab)) ns); [f_equal|]; lia.
    + destruct (_ && _); reflexivity.
  - intros k Hk. apply Ha in Hk. lia.
Qed.
End WithInv.

Lemma raw_write_acc : forall t s base o v, Inv t s base -> - MAG <= o <= MAG -> 0 <= s_pos s + o + base < t_size t ->
  yields (fun t' => exists base', Inv t' (s_mark (s_store s (s_pos s + o) v) (s_pos s + o) (s_pos s + o + 1)) base')
    (t_raw_write t (t_ptr t o) v).
Proof.
  intros t s base o v HI Ho Hin. apply (yields_impl (raw_write_spec t s base HI o v Ho Hin)).
  intros t' [Hsz Hi]. exists base. apply (acc_inv _ _ _ Hi); lia.
Qed.

(** besides the request [a, b) ending up inside the buffer: the room on either side of the old
    block never shrinks (the JIT's one-cell request relies on it) *)
Theorem grow_spec : forall pol ok t s base a b, PolicyOK pol -> Inv t s base ->
  yields (fun t' => exists base', Inv t' s base' /\
            (base <= base' /\ t_size t - base <= t_size t' - base') /\
            0 <= s_pos s + a + base' /\ s_pos s + b + base' <= t_size t')
    (t_make_accessible pol ok t a b).
Proof.
  intros pol ok t s base a b Hpol HI.
  pose proof (inv_size _ _ _ HI) as Hs. pose proof (inv_base _ _ _ HI) as Hb.
  unfold t_make_accessible. rewrite (signed_off t s base HI).
  pose proof (needed_below_spec (s_pos s + base + a)) as Hnb.
  pose proof (needed_above_spec (s_pos s + base + b) (t_size t)) as Hna.
  revert Hnb Hna.
  generalize (needed_below (s_pos s + base + a)) (needed_above (s_pos s + base + b) (t_size t)).
  intros nb na Hnb Hna.
  destruct ((nb =? 0) && (na =? 0)) eqn:E.
  - exists base. split; [exact HI|lia].
  - specialize (Hpol (t_size t) nb na (proj1 Hs) (proj1 Hnb) (proj1 Hna)).
    destruct (pol (t_size t) nb na) as [ns ab]. destruct Hpol as (P1 & P2 & P3); [lia|].
    destruct (Z.leb_spec SIZE_LIMIT ns) as [|Hns]; [exact I|]. destruct ok; [|exact I].
    exists (base + ab). split.
    + apply (grown_inv t s base HI ns ab P3). lia.
    + cbn [t_size]. lia.
Qed.

Lemma write_spec : forall pol ok t s base o v, PolicyOK pol -> Inv t s base -> - MAG <= o <= MAG ->
  yields (fun t' => exists base', Inv t' (s_mark (s_store s (s_pos s + o) v) (s_pos s + o) (s_pos s + o + 1)) base')
    (t_write pol ok t o v).
Proof.
  intros pol ok t s base o v Hpol HI Ho.
  unfold t_write. cbv zeta. change (t_ptr t o <? t_size t) with (t_check t o). rewrite (check_spec t s base HI o Ho).
  destruct (in_range_spec 0 (s_pos s + o + base) (t_size t)) as [Hin|_].
  - exact (raw_write_acc t s base o v HI Ho Hin).
  - apply (yields_bind (grow_spec pol ok t s base o (o + 1) Hpol HI)).
    intros t1 (base1 & H1 & _ & L & U). apply (raw_write_acc t1 s base1 o v H1 Ho). lia.
Qed.

(** what the outcome of [t_run] owes to the outcome [sr] of [s_run]; the base is existential
    because every growth below shifts it *)
Definition refines (sr : list sobs * tspec) : list tobs * rtape -> Prop :=
  fun '(obs, tf) => all_match obs (fst sr) = true /\ exists base', Inv tf (snd sr) base'.

Lemma refines_cons : forall o so sr r, obs_match o so = true -> yields (refines sr) r ->
  yields (refines (let '(sobs, sf) := sr in (so :: sobs, sf)))
    (match r with
     | TOk (obs, tf) => TOk (o :: obs, tf)
     | RawOob i => RawOob i | TooLarge => TooLarge | AllocFail => AllocFail
     end).
Proof.
  intros o so [sobs sf] [[obs tf]|i| |] Ho H; try exact H.
  destruct H as [Hm Hi]. split; [cbn [all_match fst]; rewrite Ho; exact Hm|exact Hi].
Qed.

Lemma run_inv : forall pol, PolicyOK pol -> forall ops t s base allocs,
  Inv t s base -> ops_small ops (s_pos s) = true ->
  yields (refines (s_run ops s)) (t_run pol ops allocs t).
Proof.
  intros pol Hpol. induction ops as [|op rest IH]; intros t s base allocs HI Hsm.
  - split; [reflexivity|exists base; exact HI].
  - destruct op as [d|o|o v|a b|o]; cbn [ops_small] in Hsm; apply andb_prop in Hsm; cbn [t_run s_run].
    + (* TMov *) destruct Hsm as [Hpd Hr]. apply andb_prop, proj2, small_spec in Hpd.
      apply (refines_cons ONone SNone); [reflexivity|].
      exact (IH _ _ base allocs (mov_inv t s base HI d Hpd) Hr).
    + (* TRead *) destruct Hsm as [Ho Hr]. apply small_spec in Ho.
      apply (refines_cons (ORead _) (SRead _)); [|exact (IH t s base allocs HI Hr)].
      cbn [obs_match]. rewrite (read_spec t s base HI o Ho). apply Z.eqb_refl.
    + (* TWrite *) destruct Hsm as [Ho Hr]. apply small_spec in Ho.
      destruct (if t_check t o then (true, allocs) else next_alloc allocs) as [ok allocs'].
      apply (yields_bind (write_spec pol ok t s base o v Hpol HI Ho)). intros t' [base' HI'].
      apply (refines_cons ONone SNone); [reflexivity|]. exact (IH t' _ base' allocs' HI' Hr).
    + (* TAcc *) destruct Hsm as [_ Hr].
      destruct (if grows t a b then next_alloc allocs else (true, allocs)) as [ok allocs'].
      apply (yields_bind (grow_spec pol ok t s base a b Hpol HI)).
      intros t' (base' & HI' & _ & L & U).
      apply (refines_cons ONone SNone); [reflexivity|].
      exact (IH t' _ base' allocs' (acc_inv t' s base' HI' _ _ L U) Hr).
    + (* TCheck *) destruct Hsm as [Ho Hr]. apply small_spec in Ho.
      apply (refines_cons (OCheck _) (SCheck _)); [|exact (IH t s base allocs HI Hr)].
      cbn [obs_match]. destruct (in_acc (s_acc s) (s_pos s + o)) eqn:A; [|reflexivity].
      apply (inv_acc _ _ _ HI) in A. rewrite (check_spec t s base HI o Ho).
      destruct (in_range_spec 0 (s_pos s + o + base) (t_size t)); [reflexivity|lia].
Qed.

Theorem tape_refines : forall pol, PolicyOK pol -> forall ops allocs obs tf,
  ops_small ops 0 = true -> t_run pol ops allocs rtape0 = TOk (obs, tf) ->
  all_match obs (fst (s_run ops spec0)) = true.
Proof.
  intros pol Hpol ops allocs obs tf Hsm Hrun.
  pose proof (run_inv pol Hpol ops rtape0 spec0 0 allocs inv0 Hsm) as H. rewrite Hrun in H. apply H.
Qed.

(** C17: whatever the allocator answers, the run either completes, leaves the model
    (size limit) or aborts at the refused request; it never dereferences an index outside
    the buffer it owns *)
Theorem alloc_fail_safe : forall pol, PolicyOK pol -> forall ops allocs,
  ops_small ops 0 = true ->
  match t_run pol ops allocs rtape0 with RawOob _ => False | _ => True end.
Proof.
  intros pol Hpol ops allocs Hsm.
  exact (yields_not_oob (run_inv pol Hpol ops rtape0 spec0 0 allocs inv0 Hsm)).
Qed.

Theorem raw_in_bounds : forall pol, PolicyOK pol -> forall ops allocs i,
  ops_small ops 0 = true -> t_run pol ops allocs rtape0 <> RawOob i.
Proof.
  intros pol Hpol ops allocs i Hsm Hrun.
  pose proof (alloc_fail_safe pol Hpol ops allocs Hsm) as H. rewrite Hrun in H. exact H.
Qed.

(** reads never allocate and never change the tape *)
Theorem read_pure : forall pol o rest allocs t,
  t_run pol (TRead o :: rest) allocs t =
  match t_run pol rest allocs t with
  | TOk (obs, tf) => TOk (ORead (t_read t o) :: obs, tf)
  | RawOob i => RawOob i | TooLarge => TooLarge | AllocFail => AllocFail
  end.
Proof. reflexivity. Qed.

(** a requested range tests accessible afterwards *)
Theorem accessible_after : forall pol t s base a b ok t', PolicyOK pol -> Inv t s base ->
  t_make_accessible pol ok t a b = TOk t' ->
  forall k, - MAG <= k <= MAG -> a <= k < b -> t_check t' k = true.
Proof.
  intros pol t s base a b ok t' Hpol HI M k Hk Hab.
  pose proof (grow_spec pol ok t s base a b Hpol HI) as G. rewrite M in G.
  destruct G as (base' & HI' & _ & L & U). rewrite (check_spec t' s base' HI' k Hk).
  destruct (in_range_spec 0 (s_pos s + k + base') (t_size t')); [reflexivity|lia].
Qed.

(** growth preserves contents and pointer: every offset reads what it read before *)
Theorem grow_preserves : forall pol t s base a b ok t', PolicyOK pol -> Inv t s base ->
  t_make_accessible pol ok t a b = TOk t' ->
  forall k, - MAG <= k <= MAG -> t_read t' k = t_read t k.
Proof.
  intros pol t s base a b ok t' Hpol HI M k Hk.
  pose proof (grow_spec pol ok t s base a b Hpol HI) as G. rewrite M in G.
  destruct G as (base' & HI' & _). rewrite (read_spec t' s base' HI' k Hk), (read_spec t s base HI k Hk). reflexivity.
Qed.

(** a refused allocation ends the run at that request: nothing after it is executed *)
Theorem alloc_fail_stops : forall pol t a b rest allocs,
  grows t a b = true ->
  t_run pol (TAcc a b :: rest) (false :: allocs) t = AllocFail \/
  t_run pol (TAcc a b :: rest) (false :: allocs) t = TooLarge.
Proof.
  intros pol t a b rest allocs Hg. cbn [t_run]. rewrite Hg. cbn [next_alloc].
  unfold grows in Hg. apply negb_true_iff in Hg.
  unfold t_make_accessible. rewrite Hg.
  destruct (pol (t_size t) _ _) as [ns ab]. destruct (SIZE_LIMIT <=? ns); [right|left]; reflexivity.
Qed.
