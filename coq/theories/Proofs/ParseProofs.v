(** * ParseProofs.v — acceptance, error kind/position and comment-insensitivity of the parser
    model (property C12). *)
From Coq Require Import ZArith List Bool Lia.
From HPBF Require Import BF IR Parse.
Import ListNotations.
Open Scope Z_scope.

(** the property's own statement: scan the brackets with a stack of '[' positions *)
Fixpoint scan (cs : list Z) (i : Z) (stack : list Z) : option (perr * Z) :=
  match cs with
  | [] => match stack with [] => None | p :: _ => Some (LoopNotClosed, p) end
  | c :: r =>
      if c =? ch_open then scan r (i + 1) (i :: stack)
      else if c =? ch_close then
        match stack with
        | [] => Some (LoopNotOpened, i)
        | _ :: st => scan r (i + 1) st
        end
      else scan r (i + 1) stack
  end.

Definition verdict (r : parse_res) : option (perr * Z) :=
  match r with POk _ => None | PErr k p => Some (k, p) end.

(** one step of [parse_go]: only the brackets touch the two stacks *)
Lemma parse_go_open : forall w cs i top stack pos,
  parse_go w (ch_open :: cs) i top stack pos
  = parse_go w cs (i + 1) (frame0 (f_shift top)) (top :: stack) (i :: pos).
Proof. reflexivity. Qed.

Lemma parse_go_close : forall w cs i top stack pos,
  parse_go w (ch_close :: cs) i top stack pos
  = match pos, stack with
    | _ :: pos', parent :: stack' => parse_go w cs (i + 1) (close_loop w top parent) stack' pos'
    | _, _ => PErr LoopNotOpened i
    end.
Proof. intros. destruct pos, stack; reflexivity. Qed.

Lemma parse_go_skip : forall w c cs i top stack pos, is_cmd c = false ->
  parse_go w (c :: cs) i top stack pos = parse_go w cs (i + 1) top stack pos.
Proof.
  intros w c cs i top stack pos H. unfold is_cmd in H. cbn [parse_go].
  (* every test [parse_go] makes is a disjunct of [is_cmd c] *)
  repeat (apply orb_false_elim in H as [H ->]). rewrite H. reflexivity.
Qed.

(** any other character rewrites the top frame, in a way that depends on nothing else *)
Lemma parse_go_plain : forall w c top, c <> ch_open -> c <> ch_close ->
  exists top', forall cs i stack pos,
    parse_go w (c :: cs) i top stack pos = parse_go w cs (i + 1) top' stack pos.
Proof.
  intros w c top O C. apply Z.eqb_neq in O, C. cbn [parse_go]. rewrite O, C.
  destruct (flush_key (f_shift top) (f_insts top, f_buff top)) as [insts b].
  destruct (c =? ch_gt); [eexists; reflexivity|].
  destruct (c =? ch_lt); [eexists; reflexivity|].
  destruct (c =? ch_plus); [eexists; reflexivity|].
  destruct (c =? ch_minus); [eexists; reflexivity|].
  destruct (c =? ch_dot); [eexists; reflexivity|].
  destruct (c =? ch_comma); eexists; reflexivity.
Qed.

Lemma parse_go_scan : forall w cs i top stack pos, length stack = length pos ->
  verdict (parse_go w cs i top stack pos) = scan cs i pos.
Proof.
  intros w cs. induction cs as [|c r IH]; intros i top stack pos L.
  - destruct stack, pos; try discriminate L; reflexivity.
  - cbn [scan]. destruct (Z.eqb_spec c ch_open) as [->|O]; [|destruct (Z.eqb_spec c ch_close) as [->|C]].
    + rewrite parse_go_open. apply IH. simpl. rewrite L. reflexivity.
    + rewrite parse_go_close. destruct pos as [|p ps]; [reflexivity|].
      destruct stack as [|f st]; [discriminate L|]. apply IH. injection L as L. exact L.
    + destruct (parse_go_plain w c top O C) as [top' E]. rewrite E. apply IH, L.
Qed.

Theorem parse_verdict : forall w cs, verdict (parse w cs) = scan cs 0 [].
Proof. intros. unfold parse. apply parse_go_scan. reflexivity. Qed.

Lemma scan_balanced : forall cs i stack,
  (scan cs i stack = None) <-> balanced_from cs (length stack) = true.
Proof.
  induction cs as [|c r IH]; intros i stack.
  - simpl. destruct stack; simpl; split; intros; try reflexivity; discriminate.
  - cbn [scan balanced_from]. destruct (c =? ch_open).
    + rewrite (IH (i + 1) (i :: stack)). simpl. reflexivity.
    + destruct (c =? ch_close).
      * destruct stack as [|p st]; simpl; [split; intros; discriminate|]. apply IH.
      * apply IH.
Qed.

Theorem parse_accepts_iff : forall w cs, (exists b, parse w cs = POk b) <-> balanced cs = true.
Proof.
  intros w cs. unfold balanced. rewrite <- (scan_balanced cs 0 []). rewrite <- (parse_verdict w).
  destruct (parse w cs) as [b|k p]; simpl; split; intros H; try reflexivity; try discriminate.
  - eexists; reflexivity.
  - destruct H as [b H]. discriminate.
Qed.

(** first unmatched ']' / innermost unclosed '[' : characterisation of [scan]'s answer *)
Theorem parse_error_spec : forall w cs k p, parse w cs = PErr k p -> scan cs 0 [] = Some (k, p).
Proof. intros w cs k p H. rewrite <- (parse_verdict w), H. reflexivity. Qed.

(** the error position is left out: it shifts when comments are removed *)
Definition shape (r : parse_res) : option block + perr :=
  match r with POk b => inl (Some b) | PErr k _ => inr k end.

Lemma parse_go_filter : forall w cs i1 i2 top stack pos1 pos2, length pos1 = length pos2 ->
  shape (parse_go w cs i1 top stack pos1) = shape (parse_go w (filter is_cmd cs) i2 top stack pos2).
Proof.
  intros w cs. induction cs as [|c r IH]; intros i1 i2 top stack pos1 pos2 L.
  - destruct stack; [reflexivity|]. destruct pos1, pos2; try discriminate L; reflexivity.
  - cbn [filter]. destruct (is_cmd c) eqn:IC; [|rewrite (parse_go_skip w c r _ _ _ _ IC); apply IH, L].
    destruct (Z.eqb_spec c ch_open) as [->|O]; [|destruct (Z.eqb_spec c ch_close) as [->|C]].
    + rewrite !parse_go_open. apply IH. simpl. rewrite L. reflexivity.
    + rewrite !parse_go_close. destruct pos1 as [|p1 ps1], pos2 as [|p2 ps2]; try discriminate L; [reflexivity|].
      destruct stack; [reflexivity|]. apply IH. injection L as L. exact L.
    + destruct (parse_go_plain w c top O C) as [top' E]. rewrite !E. apply IH, L.
Qed.

(** inserting or deleting non-command characters changes neither acceptance, nor the error kind,
    nor the IR that is produced *)
Theorem parse_comment_insensitive : forall w cs, shape (parse w cs) = shape (parse w (filter is_cmd cs)).
Proof. intros. unfold parse. apply parse_go_filter. reflexivity. Qed.

(** UTF-8: every byte of a multi-byte scalar is >= 0x80, hence never a command; the byte-wise
    in-place interpreter and the char-wise parser therefore see the same command sequence *)
Theorem noncmd_above_ascii : forall c, 128 <= c -> is_cmd c = false.
Proof.
  intros c H. unfold is_cmd, ch_plus, ch_comma, ch_minus, ch_dot, ch_lt, ch_gt, ch_open, ch_close.
  repeat (match goal with |- context [c =? ?k] => destruct (Z.eqb_spec c k); [lia|] end). reflexivity.
Qed.
