(** * ExprProofs.v — the symbolic expression algebra agrees with concrete arithmetic modulo 2^w
    (property C15). [den] is the value of an expression in Z; [eval] (the model of
    [Expr::evaluate]) is congruent to it, and every combinator is a homomorphism up to [eqm]. *)

From Coq Require Import ZArith List Bool Lia Zdiv Permutation Morphisms Setoid.
From HPBF Require Import Cell Expr CellProofs.
Import ListNotations.
Open Scope Z_scope.
#[local] Existing Instances eqm_setoid Zplus_eqm Zminus_eqm Zmult_eqm Zopp_eqm.

Lemma fold_right_perm : forall {A B} (f : A -> B -> B) (b : B),
  (forall x y c, f x (f y c) = f y (f x c)) ->
  forall l l', Permutation l l' -> fold_right f b l = fold_right f b l'.
Proof.
  intros A B f b C l l' P.
  induction P; cbn [fold_right]; [reflexivity|f_equal; assumption|apply C|etransitivity; eassumption].
Qed.

Lemma fold_left_none : forall {A B} (g : option A -> B -> option A), (forall b, g None b = None) ->
  forall l, fold_left g l None = None.
Proof. intros A B g N. induction l as [|b l IH]; [reflexivity|]. cbn [fold_left]. rewrite N. exact IH. Qed.

Lemma if_some : forall {A} (b : bool) (x y : A), (if b then Some x else None) = Some y -> b = true /\ x = y.
Proof. intros A [|] x y H; [injection H as <-; split; reflexivity|discriminate]. Qed.

Lemma lcmp_eq : forall a b, lcmp a b = Eq -> a = b.
Proof.
  induction a as [|x a IH]; intros [|y b] H; cbn [lcmp] in H; try discriminate; [reflexivity|].
  destruct (Z.compare_spec x y) as [->| |]; try discriminate. f_equal. apply IH, H.
Qed.

Lemma list_eqb_eq : forall a b, list_eqb a b = true -> a = b.
Proof.
  induction a as [|x a IH]; intros [|y b] H; cbn [list_eqb] in H; try discriminate; [reflexivity|].
  apply andb_true_iff in H. destruct H as [H1 H2]. apply Z.eqb_eq in H1. subst. f_equal. apply IH, H2.
Qed.

Lemma list_eqb_refl : forall a, list_eqb a a = true.
Proof. induction a as [|x a IH]; [reflexivity|]. cbn [list_eqb]. rewrite Z.eqb_refl. exact IH. Qed.

Lemma insert_z_perm : forall x l, Permutation (insert_z x l) (x :: l).
Proof.
  intros x l. induction l as [|y t IH]; cbn [insert_z]; [reflexivity|].
  destruct (x <=? y); [reflexivity|]. rewrite IH. apply perm_swap.
Qed.
Lemma sort_z_perm : forall l, Permutation (sort_z l) l.
Proof. induction l as [|x t IH]; [reflexivity|]. cbn [sort_z fold_right]. rewrite insert_z_perm. apply perm_skip, IH. Qed.

Lemma insert_part_perm : forall p l, Permutation (insert_part p l) (p :: l).
Proof.
  intros p l. induction l as [|q t IH]; cbn [insert_part]; [reflexivity|].
  destruct (lcmp (snd p) (snd q)); try reflexivity. rewrite IH. apply perm_swap.
Qed.
Lemma sort_parts_perm : forall l, Permutation (sort_parts l) l.
Proof. induction l as [|x t IH]; [reflexivity|]. cbn [sort_parts fold_right]. rewrite insert_part_perm. apply perm_skip, IH. Qed.

Lemma e_add_cons : forall w pa a' pb b',
  e_add w (pa :: a') (pb :: b') =
  match lcmp (snd pa) (snd pb) with
  | Lt => pa :: e_add w a' (pb :: b')
  | Gt => pb :: e_add w (pa :: a') b'
  | Eq => let c := wadd w (fst pa) (fst pb) in
          if c =? 0 then e_add w a' b' else (c, snd pa) :: e_add w a' b'
  end.
Proof. reflexivity. Qed.

Lemma e_add_nil_r : forall w a, e_add w a [] = a.
Proof. destruct a; reflexivity. Qed.

Lemma dedup_cons2 : forall x y t, dedup (x :: y :: t) = if x =? y then dedup (y :: t) else x :: dedup (y :: t).
Proof. reflexivity. Qed.

Lemma is_single_spec : forall v p, is_single v p = true -> snd p = [v].
Proof.
  intros v [c [|x [|y vs]]] H; try discriminate. apply Z.eqb_eq in H. subst. reflexivity.
Qed.

(** the multiplier [e_prod_inc_of] returns, as a fold over the bare-[v] parts alone
    (there is at most one of them under [singles_unique]) *)
Lemma last_single_coef : forall v a m0,
  fold_left (fun m p => if is_single v p then fst p else m) a m0
  = fold_left (fun _ p => fst p) (filter (is_single v) a) m0.
Proof.
  intros v. induction a as [|p a IH]; intros m0; [reflexivity|]. cbn [fold_left filter].
  destruct (is_single v p); cbn [fold_left]; apply IH.
Qed.

Lemma sq_parity : forall x, eqm 2 (x * x) x.
Proof.
  intros x. unfold eqm. rewrite Z.mul_mod by lia.
  pose proof (Z.mod_pos_bound x 2 ltac:(lia)) as B.
  assert (C : x mod 2 = 0 \/ x mod 2 = 1) by lia. destruct C as [-> | ->]; reflexivity.
Qed.

Lemma upd_coef_vars : forall l i c, map snd (upd_coef i c l) = map snd l.
Proof. induction l as [|p l IH]; intros [|i] c; cbn [upd_coef map]; try reflexivity. rewrite IH. reflexivity. Qed.

Lemma same_vars_length : forall l l' : expr, map snd l = map snd l' -> length l = length l'.
Proof. intros l l' H. apply (f_equal (@length _)) in H. rewrite !map_length in H. exact H. Qed.

Lemma vars_at_map : forall l l' i, map snd l = map snd l' -> vars_at l i = vars_at l' i.
Proof. intros l l' i H. unfold vars_at. rewrite <- (map_nth snd l), <- (map_nth snd l'), H. reflexivity. Qed.

Lemma coef_at_upd_other : forall l i j c, i <> j -> coef_at (upd_coef i c l) j = coef_at l j.
Proof.
  induction l as [|p l IH]; intros [|i] [|j] c H; try reflexivity; [congruence|].
  exact (IH i j c (fun E => H (f_equal S E))).
Qed.

Section Hom.
Variable w : Z.
Hypothesis Hw : 0 <= w.

Section Env.
Variable rho : Z -> Z.

Definition mon (vs : list Z) : Z := fold_right (fun v acc => rho v * acc) 1 vs.
Definition dpart (p : part) : Z := fst p * mon (snd p).
Definition den (e : expr) : Z := fold_right (fun p acc => dpart p + acc) 0 e.

Lemma mon_cons : forall v vs, mon (v :: vs) = rho v * mon vs.
Proof. reflexivity. Qed.
Lemma den_cons : forall p e, den (p :: e) = dpart p + den e.
Proof. reflexivity. Qed.
Lemma den_single : forall p, den [p] = dpart p.
Proof. intros p. apply Z.add_0_r. Qed.

Lemma mon_app : forall a b, mon (a ++ b) = mon a * mon b.
Proof.
  induction a as [|x a IH]; intros b; [symmetry; apply Z.mul_1_l|].
  cbn [app]. rewrite !mon_cons, IH. apply Z.mul_assoc.
Qed.

Lemma den_app : forall a b, den (a ++ b) = den a + den b.
Proof.
  induction a as [|x a IH]; intros b; [reflexivity|].
  cbn [app]. rewrite !den_cons, IH. apply Z.add_assoc.
Qed.

Lemma mon_perm : forall a b, Permutation a b -> mon a = mon b.
Proof. apply fold_right_perm. intros x y c. apply Z.mul_shuffle3. Qed.

Lemma den_perm : forall a b, Permutation a b -> den a = den b.
Proof. apply fold_right_perm. intros x y c. apply Z.add_shuffle3. Qed.

Lemma den_val : forall c, den (e_val c) = c.
Proof.
  intros c. unfold e_val. destruct (Z.eqb_spec c 0) as [->|_]; [reflexivity|].
  cbv [den dpart mon fold_right fst snd]. lia.
Qed.

Lemma den_var : forall v, den (e_var v) = rho v.
Proof. intros v. cbv [e_var den dpart mon fold_right fst snd]. lia. Qed.

Lemma den_filter_nonzero : forall e, den (filter nonzero e) = den e.
Proof.
  induction e as [|[c vs] e IH]; [reflexivity|]. cbn [filter]. unfold nonzero at 1. cbn [fst].
  destruct (Z.eqb_spec c 0) as [->|_]; cbn [negb]; rewrite ?den_cons, IH; reflexivity.
Qed.

Lemma den_cons_nonzero : forall c vs e, den (if c =? 0 then e else (c, vs) :: e) = c * mon vs + den e.
Proof. intros c vs e. destruct (Z.eqb_spec c 0) as [->|_]; reflexivity. Qed.

Lemma den_partition : forall (f : part -> bool) a, den a = den (filter f a) + den (filter (fun p => negb (f p)) a).
Proof.
  intros f a. induction a as [|p a IH]; [reflexivity|]. cbn [filter].
  destruct (f p); cbn [negb]; rewrite !den_cons, IH; lia.
Qed.

(** value of the accumulator map of [mul], [mul_parts] and [symb_evaluate] (variable list -> coefficient) *)
Definition amap_den (m : amap) : Z := fold_right (fun kc acc => snd kc * mon (fst kc) + acc) 0 m.

Lemma den_map_swap : forall m, den (map (fun kc : list Z * Z => (snd kc, fst kc)) m) = amap_den m.
Proof. induction m as [|[k c] m IH]; [reflexivity|]. cbn [map]. rewrite den_cons, IH. reflexivity. Qed.

Lemma amap_parts_den : forall m, den (amap_parts m) = amap_den m.
Proof.
  intros m. unfold amap_parts. rewrite (den_perm _ _ (sort_parts_perm _)), den_filter_nonzero.
  apply den_map_swap.
Qed.

Lemma amap_list_den : forall m, den (amap_list m) = amap_den m.
Proof. intros m. unfold amap_list. rewrite den_filter_nonzero. apply den_map_swap. Qed.

Lemma mon_remove_var : forall v vs, mon vs = rho v ^ Z.of_nat (count v vs) * mon (remove_var v vs).
Proof.
  intros v. induction vs as [|x vs IH]; [reflexivity|]. unfold remove_var. cbn [count filter].
  destruct (Z.eqb_spec x v) as [->|_]; cbn [negb]; fold (remove_var v vs).
  - rewrite Nat2Z.inj_succ, Z.pow_succ_r, mon_cons, IH by apply Nat2Z.is_nonneg. apply Z.mul_assoc.
  - rewrite !mon_cons, IH. apply Z.mul_shuffle3.
Qed.

Lemma mon_dedup_parity : forall vs, eqm 2 (mon (dedup vs)) (mon vs).
Proof.
  induction vs as [|x t IH]; [reflexivity|].
  destruct t as [|y t']; [reflexivity|].
  rewrite dedup_cons2.
  destruct (Z.eqb_spec x y) as [<-|_].
  - rewrite IH, !mon_cons, Z.mul_assoc, (sq_parity (rho x)). reflexivity.
  - rewrite (mon_cons x (dedup (y :: t'))), IH. reflexivity.
Qed.

Theorem den_constant : forall a c, e_constant a = Some c -> den a = c.
Proof.
  intros [|[c0 [|]] [|]] c H; try discriminate; injection H as <-; [reflexivity|].
  cbv [den dpart mon fold_right fst snd]. lia.
Qed.

Theorem den_identity : forall a x, e_identity a = Some x -> den a = rho x.
Proof.
  intros [|[c [|v [|]]] [|]] x H; try discriminate. cbn [e_identity] in H.
  destruct (Z.eqb_spec c 1) as [->|]; [|discriminate]. injection H as <-.
  cbv [den dpart mon fold_right fst snd]. lia.
Qed.

Theorem den_const_inc_of : forall a v c, e_const_inc_of a v = Some c -> den a = rho v + c.
Proof.
  intros a v c H.
  destruct a as [|[c0 [|x0 [|]]] [|[c1 [|x1 [|]]] [|]]]; try discriminate; cbn [e_const_inc_of] in H.
  (* two shapes are left: [v] alone, or a constant followed by [v] *)
  all: destruct (if_some _ _ _ H) as [E <-]; apply andb_true_iff in E; destruct E as [Ec Ev].
  all: apply Z.eqb_eq in Ec, Ev; subst.
  all: cbv [den dpart mon fold_right fst snd]; lia.
Qed.

(** the shape hypotheses of the three decompositions below; ExprShape.v derives them from its invariant [J] *)
Definition singles_unique (v : Z) (a : expr) : Prop := (length (filter (is_single v) a) <= 1)%nat.
Definition const_first (a : expr) : Prop := forall p, In p (tl a) -> snd p <> [].

Lemma singles_cases : forall v a, singles_unique v a ->
  filter (is_single v) a = [] \/ exists c, filter (is_single v) a = [(c, [v])].
Proof.
  intros v a U. unfold singles_unique in U.
  assert (S : forall q, In q (filter (is_single v) a) -> snd q = [v])
    by (intros q Hq; apply is_single_spec, (proj1 (filter_In _ _ _) Hq)).
  destruct (filter (is_single v) a) as [|[c vs] [|q l]]; [left; reflexivity| |cbn [length] in U; lia].
  right. exists c. rewrite <- (S (c, vs) (or_introl eq_refl)). reflexivity.
Qed.

Theorem den_prod_inc_of : forall a v r m, singles_unique v a -> e_prod_inc_of a v = Some (r, m) ->
  den a = m * rho v + den r.
Proof.
  intros a v r m U H. destruct (if_some _ _ _ H) as [_ E]. injection E as <- <-.
  rewrite (den_partition (is_single v) a), last_single_coef. f_equal.
  destruct (singles_cases v a U) as [->|[c ->]]; cbv [den dpart mon fold_right fold_left fst snd]; lia.
Qed.

Theorem den_inc_of : forall a v r, singles_unique v a -> e_inc_of a v = Some r -> den a = rho v + den r.
Proof.
  intros a v r U H. destruct (if_some _ _ _ H) as [C <-]. apply andb_true_iff in C. destruct C as [Ex _].
  rewrite (den_partition (is_single v) a). f_equal.
  apply existsb_exists in Ex. destruct Ex as [p [Hin Hp]]. apply andb_true_iff in Hp. destruct Hp as [H1 HS].
  apply Z.eqb_eq in H1.
  assert (Hf : In p (filter (is_single v) a)) by (apply filter_In; split; assumption).
  destruct (singles_cases v a U) as [E|[c E]]; rewrite E in Hf |- *.
  - destruct Hf.
  - destruct Hf as [<-|[]]. cbn [fst] in H1. subst c. cbv [den dpart mon fold_right fst snd]. lia.
Qed.

Theorem den_constant_part : forall a, const_first a -> (forall v, rho v = 0) -> den a = e_constant_part a.
Proof.
  intros a CF Z0.
  assert (V : forall l, (forall p, In p l -> snd p <> []) -> den l = 0).
  { induction l as [|[c [|x vs]] l IH]; intros Hl.
    - reflexivity.
    - destruct (Hl _ (or_introl eq_refl)). reflexivity.
    - rewrite den_cons, IH by (intros q Hq; apply Hl; right; exact Hq).
      unfold dpart. cbn [fst snd]. rewrite mon_cons, Z0. lia. }
  destruct a as [|[c vs] a]; [reflexivity|]. rewrite den_cons, (V a CF). unfold dpart. cbn [fst snd].
  destruct vs as [|x vs]; cbn [e_constant_part].
  - cbn [mon fold_right]. lia.
  - rewrite mon_cons, Z0. lia.
Qed.

(** [M] is declared only here: with it in the context, [lia] makes a lemma depend on [w] even when its
    statement does not mention it. *)
Let M := 2 ^ w.
Notation "a == b" := (eqm M a b) (at level 70).

Lemma M_pos : 0 < M. Proof. exact (pow2_pos w Hw). Qed.

Lemma eqm_of_eq : forall a b, a = b -> a == b.
Proof. intros a b ->. reflexivity. Qed.

Lemma mod_eqm : forall x, x mod M == x.
Proof. intros x. apply Z.mod_mod. pose proof M_pos. lia. Qed.

Lemma wadd_eqm : forall a b, wadd w a b == a + b.
Proof. intros a b. exact (mod_eqm (a + b)). Qed.
Lemma wmul_eqm : forall a b, wmul w a b == a * b.
Proof. intros a b. exact (mod_eqm (a * b)). Qed.
Lemma wneg_eqm : forall a, wneg w a == - a.
Proof. intros a. exact (mod_eqm (- a)). Qed.

Lemma eqm_zero_mul : forall a b, a == 0 -> a * b == 0.
Proof. intros a b H. rewrite H. reflexivity. Qed.

Lemma eqb0_eqm : forall a, (a =? 0) = true -> a == 0.
Proof. intros a H. apply Z.eqb_eq in H. subst. reflexivity. Qed.

Lemma eval_part_loop_den : forall vs acc,
  fold_left (fun pv v => wmul w pv (rho v)) vs acc == acc * mon vs.
Proof.
  induction vs as [|v vs IH]; intros acc; cbn [fold_left].
  - rewrite Z.mul_1_r. reflexivity.
  - rewrite IH, wmul_eqm, mon_cons, Z.mul_assoc. reflexivity.
Qed.

Lemma eval_loop_den : forall e acc,
  fold_left (fun val p => wadd w val (eval_part w rho p)) e acc == acc + den e.
Proof.
  induction e as [|p e IH]; intros acc; cbn [fold_left].
  - rewrite Z.add_0_r. reflexivity.
  - rewrite IH, wadd_eqm, (eval_part_loop_den (snd p) (fst p)), den_cons, Z.add_assoc. reflexivity.
Qed.

Theorem eval_den : forall e, eval w e rho == den e.
Proof. intros e. exact (eval_loop_den e 0). Qed.

(** one induction for scaling, negation, halving, the dedup of phase 1 and [prod_of] *)
Lemma den_map_lin : forall k1 k2 (g : part -> part) l,
  (forall p, In p l -> k1 * dpart (g p) == k2 * dpart p) -> k1 * den (map g l) == k2 * den l.
Proof.
  intros k1 k2 g. induction l as [|p l IH]; intros H; [rewrite !Z.mul_0_r; reflexivity|].
  cbn [map]. rewrite !den_cons, !Z.mul_add_distr_l.
  apply Zplus_eqm; [apply H; left; reflexivity|apply IH; intros q Hq; apply H; right; exact Hq].
Qed.

Lemma den_map_scale : forall k (g : part -> part) l,
  (forall p, dpart (g p) == dpart p * k) -> den (map g l) == den l * k.
Proof.
  intros k g l H. rewrite <- (Z.mul_1_l (den (map g l))), (Z.mul_comm (den l)). apply den_map_lin.
  intros p _. rewrite Z.mul_1_l, Z.mul_comm. apply H.
Qed.

Theorem den_add : forall a b, den (e_add w a b) == den a + den b.
Proof.
  induction a as [|pa a' IHa]; intros b; [reflexivity|].
  induction b as [|pb b' IHb]; [rewrite e_add_nil_r, Z.add_0_r; reflexivity|].
  rewrite e_add_cons. destruct (lcmp (snd pa) (snd pb)) eqn:C.
  - cbv zeta. rewrite den_cons_nonzero, IHa, wadd_eqm, !den_cons. unfold dpart.
    rewrite <- (lcmp_eq _ _ C). apply eqm_of_eq. lia.
  - rewrite (den_cons pa), IHa, (den_cons pa), Z.add_assoc. reflexivity.
  - rewrite (den_cons pb), IHb, (den_cons pb b'). apply eqm_of_eq, Z.add_shuffle3.
Qed.

Lemma dpart_mul : forall p q vs, Permutation vs (snd p ++ snd q) ->
  dpart (wmul w (fst p) (fst q), vs) == dpart p * dpart q.
Proof.
  intros p q vs P. unfold dpart. cbn [fst snd].
  rewrite (mon_perm _ _ P), mon_app, wmul_eqm. apply eqm_of_eq, Z.mul_shuffle1.
Qed.

(** [scale_parts] appends the variables, [scale_sorted] sorts them as well *)
Lemma den_scale_by : forall (s : list Z -> list Z), (forall l, Permutation (s l) l) -> forall ps q,
  den (filter nonzero (map (fun p => (wmul w (fst p) (fst q), s (snd p ++ snd q))) ps)) == den ps * dpart q.
Proof.
  intros s Hs ps q. rewrite den_filter_nonzero. apply den_map_scale. intros p. apply dpart_mul, Hs.
Qed.

Lemma den_scale : forall ps q, den (scale_parts w ps q) == den ps * dpart q.
Proof. exact (den_scale_by (fun l => l) (@Permutation_refl Z)). Qed.

Lemma den_scale_sorted : forall ps q, den (scale_sorted w ps q) == den ps * dpart q.
Proof. exact (den_scale_by sort_z sort_z_perm). Qed.

Lemma amap_den_cons : forall k c m, amap_den ((k, c) :: m) = c * mon k + amap_den m.
Proof. reflexivity. Qed.

Lemma acc_add_den : forall k c m, amap_den (acc_add w k c m) == amap_den m + c * mon k.
Proof.
  intros k c m. induction m as [|[k' c'] m IH]; cbn [acc_add].
  - rewrite amap_den_cons, wadd_eqm. apply eqm_of_eq. lia.
  - destruct (list_eqb k k') eqn:E; rewrite !amap_den_cons.
    + rewrite wadd_eqm, (list_eqb_eq _ _ E). apply eqm_of_eq. lia.
    + rewrite IH, Z.add_assoc. reflexivity.
Qed.

Lemma fold_acc_den : forall {A} (key : A -> list Z) (val : A -> Z) (l : list A) m,
  amap_den (fold_left (fun m x => acc_add w (key x) (val x) m) l m)
  == amap_den m + den (map (fun x => (val x, key x)) l).
Proof.
  intros A key val. induction l as [|x l IH]; intros m; cbn [fold_left map].
  - rewrite Z.add_0_r. reflexivity.
  - rewrite IH, acc_add_den, den_cons, Z.add_assoc. reflexivity.
Qed.

(** the double loop of [mul_general] and of [mul_parts] *)
Lemma mul_loops_den : forall (a b : expr) (m : amap),
  amap_den (fold_left (fun m pa =>
       fold_left (fun m pb => acc_add w (sort_z (snd pa ++ snd pb)) (wmul w (fst pa) (fst pb)) m) b m) a m)
  == amap_den m + den a * den b.
Proof.
  induction a as [|pa a IH]; intros b m; cbn [fold_left].
  - rewrite Z.add_0_r. reflexivity.
  - rewrite IH, (fold_acc_den (fun pb => sort_z (snd pa ++ snd pb)) (fun pb => wmul w (fst pa) (fst pb))).
    rewrite (den_map_scale (dpart pa)) by (intros pb; rewrite Z.mul_comm; apply dpart_mul, sort_z_perm).
    rewrite den_cons. apply eqm_of_eq. lia.
Qed.

Theorem den_mul : forall a b, den (e_mul w a b) == den a * den b.
Proof.
  intros [|q a] b; [reflexivity|].
  destruct b as [|r b]; [rewrite Z.mul_0_r; destruct a; reflexivity|].
  destruct a as [|q2 a]; [rewrite den_single, Z.mul_comm; apply den_scale|].
  destruct b as [|r2 b]; [rewrite (den_single r); apply den_scale|].
  unfold e_mul, mul_general. rewrite amap_parts_den. exact (mul_loops_den (q :: q2 :: a) (r :: r2 :: b) []).
Qed.

Lemma den_mul_parts : forall l r, den (mul_parts w l r) == den l * den r.
Proof.
  intros [|q l] r; [reflexivity|].
  destruct r as [|s r]; [rewrite Z.mul_0_r; destruct l; reflexivity|].
  destruct l as [|q2 l]; [rewrite den_single, Z.mul_comm; apply den_scale_sorted|].
  destruct r as [|s2 r]; [rewrite (den_single s); apply den_scale_sorted|].
  cbn [mul_parts]. rewrite amap_list_den, Z.mul_comm. exact (mul_loops_den (s :: s2 :: r) (q :: q2 :: l) []).
Qed.

Theorem den_neg : forall a, den (e_neg w a) == - den a.
Proof.
  intros a. rewrite Z.opp_eq_mul_m1. apply den_map_scale.
  intros p. unfold dpart. cbn [fst snd]. rewrite wneg_eqm. apply eqm_of_eq. lia.
Qed.

Lemma half_coef : forall c, is_odd c = false -> 2 * wshr w c 1 == c.
Proof.
  intros c H. rewrite is_odd_spec in H. rewrite (even_mod2 c H) at 2. unfold wshr.
  destruct (1 <? w) eqn:E.
  - rewrite Z.shiftr_div_pow2 by lia. reflexivity.
  - (* M divides 2 *)
    apply Z.ltb_ge in E. unfold eqm.
    replace (2 * (c / 2)) with (c / 2 * 2 ^ (1 - w) * M)
      by (unfold M; rewrite <- Z.mul_assoc, <- Z.pow_add_r by lia; replace (1 - w + w) with 1 by lia; lia).
    rewrite Z.mod_mul by (pose proof M_pos; lia). reflexivity.
Qed.

Theorem den_half : forall a h, e_half w a = Some h -> 2 * den h == den a.
Proof.
  intros a h H. destruct (if_some _ _ _ H) as [F <-].
  rewrite <- (Z.mul_1_l (den a)). apply den_map_lin. intros p Hp.
  rewrite forallb_forall in F. specialize (F p Hp). apply negb_true_iff in F.
  unfold dpart. cbn [fst snd]. rewrite Z.mul_assoc, (half_coef _ F), Z.mul_1_l. reflexivity.
Qed.

Lemma den_add_each : forall (g : part -> part) l acc,
  den (fold_left (fun acc p => e_add w acc [g p]) l acc) == den acc + den (map g l).
Proof.
  intros g. induction l as [|p l IH]; intros acc; cbn [fold_left map].
  - rewrite Z.add_0_r. reflexivity.
  - rewrite IH, den_add, den_single, den_cons, Z.add_assoc. reflexivity.
Qed.

Theorem den_prod_of : forall a v r, e_prod_of w a v = Some r -> den a == rho v * den r.
Proof.
  intros a v r H. destruct (if_some _ _ _ H) as [F <-].
  rewrite (den_add_each (fun p => (fst p, remove_var v (snd p)))). change (den [] + ?x) with x.
  symmetry. rewrite <- (Z.mul_1_l (den a)). apply den_map_lin. intros p Hp.
  rewrite forallb_forall in F. specialize (F p Hp). apply Nat.eqb_eq in F.
  apply eqm_of_eq. unfold dpart. cbn [fst snd]. rewrite (mon_remove_var v (snd p)), F, Z.pow_1_r. lia.
Qed.

Lemma hm_double : half_mod w * 2 == 0.
Proof.
  unfold half_mod, wshl. destruct (w - 1 <? w) eqn:E; [|apply Z.ltb_ge in E; lia].
  fold M. rewrite mod_eqm. unfold eqm. destruct (Z.eq_dec w 0) as [E0|Hn].
  - unfold M. rewrite E0. apply Z.mod_1_r.
  - rewrite Z.shiftl_mul_pow2, Z.mul_1_l, Z.mul_comm, <- Z.pow_succ_r by lia.
    replace (Z.succ (w - 1)) with w by lia. apply Z.mod_same. pose proof M_pos. fold M. lia.
Qed.

Lemma hm_parity : forall a b, eqm 2 a b -> half_mod w * a == half_mod w * b.
Proof.
  intros a b H. unfold eqm in H.
  pose proof (Z.div_mod a 2 ltac:(lia)) as Da. pose proof (Z.div_mod b 2 ltac:(lia)) as Db.
  replace (half_mod w * a) with (half_mod w * b + (half_mod w * 2) * (a / 2 - b / 2)) by lia.
  rewrite hm_double. apply eqm_of_eq. lia.
Qed.

(** why phase 1 may drop repeated variables under the coefficient [half_mod]: [half_mod * 2 == 0] ([hm_double]), so
    [half_mod * x] depends only on the parity of [x] ([hm_parity]); and [x * x] has the parity of [x] ([sq_parity]),
    so a monomial keeps its parity when a repeated variable goes ([mon_dedup_parity]) *)
Lemma den_map_dedup : forall a,
  den (map (fun p => if fst p =? half_mod w then (fst p, dedup (snd p)) else p) a) == den a.
Proof.
  intros a. rewrite <- (Z.mul_1_r (den a)). apply den_map_scale. intros p. rewrite Z.mul_1_r.
  destruct (Z.eqb_spec (fst p) (half_mod w)) as [E|_]; [|reflexivity].
  unfold dpart. cbn [fst snd]. rewrite E. apply hm_parity, mon_dedup_parity.
Qed.

Lemma chunk_sum_den : forall l head,
  den (chunk_sum w head l) == den (match head with Some h => [h] | None => [] end) + den l.
Proof.
  induction l as [|p t IH]; intros head.
  - destruct head; rewrite Z.add_0_r; reflexivity.
  - destruct head as [h|]; cbn [chunk_sum]; [|rewrite IH, den_single; reflexivity].
    destruct (list_eqb (snd h) (snd p)) eqn:E.
    + apply list_eqb_eq in E. rewrite IH, !den_single, (den_cons p). unfold dpart. cbn [fst snd].
      rewrite wadd_eqm, E. apply eqm_of_eq. lia.
    + rewrite den_cons, IH, !den_single, (den_cons p), Z.add_assoc. reflexivity.
Qed.

Lemma norm_phase1_den : forall a, den (norm_phase1 w a) == den a.
Proof.
  intros a. unfold norm_phase1. cbv zeta.
  destruct (existsb _ _); [|reflexivity].
  destruct (existsb _ _); [|apply den_map_dedup].
  rewrite den_filter_nonzero, chunk_sum_den, (den_perm _ _ (sort_parts_perm _)). apply den_map_dedup.
Qed.

Lemma coef_at_upd_same : forall l i c, (i < length l)%nat -> coef_at (upd_coef i c l) i = c.
Proof using w. (* keeps [w] a parameter of the closed lemma, though neither statement nor proof mentions it *)
  induction l as [|p l IH]; intros [|i] c H; cbn [length] in H; [inversion H|inversion H|reflexivity|].
  exact (IH i c (proj2 (Nat.succ_lt_mono _ _) H)).
Qed.

Lemma phase2_inner_vars : forall i others pn, map snd (fst (phase2_inner w i others pn)) = map snd (fst pn).
Proof.
  intros i. unfold phase2_inner. induction others as [|j others IH]; intros [ps nd]; cbn [fold_left]; [reflexivity|].
  cbn [fst snd]. destruct (norm_cond w (coef_at ps i) (coef_at ps j)); rewrite IH; [|reflexivity].
  cbn [fst]. rewrite !upd_coef_vars. reflexivity.
Qed.

Lemma phase2_step_vars : forall st i, map snd (fst (fst (phase2_step w st i))) = map snd (fst (fst st)).
Proof.
  intros [[parts br] need] i. unfold phase2_step. cbn [fst snd].
  destruct (length (vars_at parts i) =? 0)%nat; [reflexivity|].
  destruct (assoc_l (dedup (vars_at parts i)) br); cbn [fst snd]; [apply phase2_inner_vars|reflexivity].
Qed.

Lemma phase2_fold_vars : forall l st, map snd (fst (fst (fold_left (phase2_step w) l st))) = map snd (fst (fst st)).
Proof. induction l as [|i l IH]; intros st; [reflexivity|]. cbn [fold_left]. rewrite IH. apply phase2_step_vars. Qed.

Lemma den_bump : forall l i d, (i < length l)%nat ->
  den (upd_coef i (wadd w (coef_at l i) d) l) == den l + d * mon (vars_at l i).
Proof.
  induction l as [|p l IH]; intros [|i] d H; cbn [length] in H; try lia; cbn [upd_coef]; rewrite !den_cons.
  - unfold dpart, coef_at, vars_at. cbn [nth fst snd]. rewrite wadd_eqm. apply eqm_of_eq. lia.
  - change (coef_at (p :: l) (S i)) with (coef_at l i). change (vars_at (p :: l) (S i)) with (vars_at l i).
    rewrite IH by lia. apply eqm_of_eq. lia.
Qed.

(** phase 2 started on [a]: the parts keep the variable lists of [a] *)
Section Phase2.
Variable a : expr.

(** adding [half_mod] to the coefficients of two parts whose variable lists have the same
    reduced form changes the value by an even multiple of [half_mod] *)
Lemma pair_update_den : forall ps i j, map snd ps = map snd a ->
  (i < length a)%nat -> (j < length a)%nat -> i <> j -> dedup (vars_at a j) = dedup (vars_at a i) ->
  den (upd_coef j (wadd w (coef_at ps j) (half_mod w)) (upd_coef i (wadd w (coef_at ps i) (half_mod w)) ps)) == den ps.
Proof.
  intros ps i j Hv Hi Hj Hne Hk. rewrite <- (same_vars_length _ _ Hv) in Hi, Hj.
  rewrite <- (coef_at_upd_other ps i j (wadd w (coef_at ps i) (half_mod w)) Hne).
  rewrite den_bump by (rewrite (same_vars_length _ _ (upd_coef_vars _ _ _)); exact Hj).
  rewrite den_bump by exact Hi.
  rewrite (vars_at_map _ ps j (upd_coef_vars _ _ _)), !(vars_at_map ps a _ Hv), <- Z.add_assoc, <- Z.mul_add_distr_l.
  assert (P : eqm 2 (mon (vars_at a i) + mon (vars_at a j)) 0).
  { rewrite <- (mon_dedup_parity (vars_at a i)), <- (mon_dedup_parity (vars_at a j)), Hk.
    unfold eqm. rewrite Z.add_diag, Z.mul_comm. apply Z.mod_mul. lia. }
  rewrite (hm_parity _ _ P), Z.mul_0_r, Z.add_0_r. reflexivity.
Qed.

(** [by_red] maps a reduced variable list to the earlier indices that have it *)
Definition entry_ok (bound : nat) (kx : list Z * list nat) : Prop :=
  Forall (fun j => (j < bound)%nat /\ dedup (vars_at a j) = fst kx) (snd kx).
Definition by_red_ok (bound : nat) (m : list (list Z * list nat)) : Prop := Forall (entry_ok bound) m.

Lemma by_red_lookup : forall bound m key others, by_red_ok bound m -> assoc_l key m = Some others ->
  entry_ok bound (key, others).
Proof.
  intros bound m key others H. induction H as [|[k x] m Hk Hm IH]; intros A; cbn [assoc_l] in A; [discriminate|].
  destruct (list_eqb key k) eqn:E; [|exact (IH A)].
  injection A as <-. apply list_eqb_eq in E. subst k. exact Hk.
Qed.

Lemma entry_weaken : forall i kx, entry_ok i kx -> entry_ok (S i) kx.
Proof. intros i kx. apply Forall_impl. intros j [L D]. split; [lia|exact D]. Qed.

Lemma by_red_push : forall i m, by_red_ok i m -> by_red_ok (S i) (assoc_l_push (dedup (vars_at a i)) i m).
Proof.
  intros i m H.
  assert (New : entry_ok (S i) (dedup (vars_at a i), [i])) by (repeat constructor).
  induction H as [|[k x] m Hk Hm IH]; cbn [assoc_l_push]; [repeat constructor; exact New|].
  destruct (list_eqb (dedup (vars_at a i)) k) eqn:E; [|constructor; [apply entry_weaken, Hk|exact IH]].
  apply list_eqb_eq in E. subst k. constructor; [|exact (Forall_impl _ (entry_weaken i) Hm)].
  apply Forall_app. split; [exact (entry_weaken _ _ Hk)|exact New].
Qed.

Lemma phase2_inner_den : forall i others pn, (i < length a)%nat -> map snd (fst pn) = map snd a ->
  entry_ok i (dedup (vars_at a i), others) -> den (fst (phase2_inner w i others pn)) == den (fst pn).
Proof.
  intros i others pn Hi Hv Ho. unfold phase2_inner. revert pn Hv. unfold entry_ok in Ho. cbn [fst snd] in Ho.
  induction Ho as [|j l [Lj Dj] _ IH]; intros [ps nd] Hv; cbn [fold_left]; [reflexivity|].
  cbn [fst snd] in *. destruct (norm_cond w (coef_at ps i) (coef_at ps j)); [|exact (IH (ps, nd) Hv)].
  cbv zeta. rewrite IH by (cbn [fst]; rewrite !upd_coef_vars; exact Hv).
  apply pair_update_den; [exact Hv|exact Hi|lia|lia|exact Dj].
Qed.

Lemma phase2_step_den : forall i st,
  (i < length a)%nat -> map snd (fst (fst st)) = map snd a -> by_red_ok i (snd (fst st)) ->
  by_red_ok (S i) (snd (fst (phase2_step w st i))) /\ den (fst (fst (phase2_step w st i))) == den (fst (fst st)).
Proof.
  intros i [[parts by_red] need] Hi Hv Hok. cbn [fst snd] in Hv, Hok. unfold phase2_step. cbn [fst snd].
  destruct (length (vars_at parts i) =? 0)%nat; [split; [exact (Forall_impl _ (entry_weaken i) Hok)|reflexivity]|].
  rewrite (vars_at_map parts a i Hv).
  destruct (assoc_l (dedup (vars_at a i)) by_red) as [others|] eqn:A; cbn [fst snd];
    (split; [exact (by_red_push i by_red Hok)|]).
  - exact (phase2_inner_den i others (parts, need) Hi Hv (by_red_lookup i by_red _ _ Hok A)).
  - reflexivity.
Qed.

Lemma phase2_fold_den : forall n i0 st,
  (i0 + n <= length a)%nat -> map snd (fst (fst st)) = map snd a -> by_red_ok i0 (snd (fst st)) ->
  den (fst (fst (fold_left (phase2_step w) (seq i0 n) st))) == den (fst (fst st)).
Proof.
  intros n. induction n as [|n IH]; intros i0 st Hb Hv Hok; cbn [seq fold_left]; [reflexivity|].
  destruct (phase2_step_den i0 st ltac:(lia) Hv Hok) as [B D].
  rewrite IH; [exact D|lia|rewrite phase2_step_vars; exact Hv|exact B].
Qed.

End Phase2.

Lemma norm_phase2_den : forall a, den (norm_phase2 w a) == den a.
Proof.
  intros a. unfold norm_phase2.
  destruct (existsb _ _); [|reflexivity].
  pose proof (phase2_fold_den a (length a) 0 (a, [], false) (le_n _) eq_refl (Forall_nil _)) as H.
  cbv zeta. destruct (snd (fold_left (phase2_step w) (seq 0 (length a)) (a, [], false))); [rewrite den_filter_nonzero|]; exact H.
Qed.

Theorem den_normalize : forall a, den (e_normalize w a) == den a.
Proof.
  intros a. unfold e_normalize.
  destruct (_ && _); [|reflexivity].
  rewrite norm_phase2_den. apply norm_phase1_den.
Qed.

End Env.

(** the loop body of [symb_evaluate] and its two inner loops, named so that ExprShape.v can speak of them too *)
Definition symb_prod (f : Z -> option expr) (vs : list Z) (ev : expr) : option expr :=
  fold_left (fun partial v' =>
      match partial with
      | None => None
      | Some pr => match f v' with Some e' => Some (mul_parts w pr e') | None => None end
      end) vs (Some ev).

Definition symb_acc (c : Z) (e : expr) (m : amap) : amap :=
  fold_left (fun m vp => acc_add w (snd vp) (wmul w c (fst vp)) m) e m.

Definition symb_step (f : Z -> option expr) (acc : option amap) (p : part) : option amap :=
  match acc with
  | None => None
  | Some m =>
      match snd p with
      | [] => Some (acc_add w [] (fst p) m)
      | [v] => match f v with Some ev => Some (symb_acc (fst p) ev m) | None => None end
      | v :: vs =>
          match f v with
          | None => None
          | Some ev =>
              match symb_prod f vs ev with
              | None => None
              | Some pr => Some (symb_acc (fst p) pr m)
              end
          end
      end
  end.

Lemma e_symb_evaluate_eq : forall a f,
  e_symb_evaluate w a f =
  match e_identity a with
  | Some v => f v
  | None =>
      match e_constant a with
      | Some c => Some (e_val c)
      | None => match fold_left (symb_step f) a (Some []) with Some m => Some (amap_parts m) | None => None end
      end
  end.
Proof. reflexivity. Qed.

(** a single variable is the product with no further factors *)
Lemma symb_step_cons : forall f m c v vs,
  symb_step f (Some m) (c, v :: vs) =
  match f v with
  | None => None
  | Some ev => match symb_prod f vs ev with None => None | Some pr => Some (symb_acc c pr m) end
  end.
Proof. intros. destruct vs; reflexivity. Qed.

Notation "a == b" := (eqm (2 ^ w) a b) (at level 70).

Section Subst.
Variable rho : Z -> Z.
Variable f : Z -> option expr.

(** 0 where [f] is undefined, as in [eval_symb]; any value would do, since [e_symb_evaluate] fails on an
    expression in which such a variable occurs *)
Definition sub (v : Z) : Z := match f v with Some e' => den rho e' | None => 0 end.

Lemma sub_some : forall v e, f v = Some e -> sub v = den rho e.
Proof. intros v e F. unfold sub. rewrite F. reflexivity. Qed.

Lemma symb_acc_den : forall c ev m, amap_den rho (symb_acc c ev m) == amap_den rho m + c * den rho ev.
Proof.
  intros c ev m. unfold symb_acc. rewrite (fold_acc_den rho (fun vp : part => snd vp) (fun vp => wmul w c (fst vp))).
  rewrite (den_map_scale rho c), (Z.mul_comm c); [reflexivity|].
  intros p. unfold dpart. cbn [fst snd]. rewrite wmul_eqm. apply eqm_of_eq. lia.
Qed.

Lemma symb_prod_den : forall vs ev pr, symb_prod f vs ev = Some pr -> den rho pr == den rho ev * mon sub vs.
Proof.
  unfold symb_prod. induction vs as [|v vs IH]; intros ev pr H; cbn [fold_left] in H.
  - injection H as <-. rewrite Z.mul_1_r. reflexivity.
  - destruct (f v) as [e'|] eqn:F; [|rewrite fold_left_none in H by reflexivity; discriminate].
    rewrite (IH _ _ H), den_mul_parts, mon_cons, (sub_some _ _ F), Z.mul_assoc. reflexivity.
Qed.

Lemma symb_step_den : forall m0 p m1, symb_step f (Some m0) p = Some m1 ->
  amap_den rho m1 == amap_den rho m0 + dpart sub p.
Proof.
  intros m0 [c [|v vs]] m1 H.
  - injection H as <-. apply acc_add_den.
  - rewrite symb_step_cons in H. destruct (f v) as [ev|] eqn:F; [|discriminate].
    destruct (symb_prod f vs ev) as [pr|] eqn:P; [|discriminate]. injection H as <-.
    unfold dpart. cbn [fst snd].
    rewrite symb_acc_den, (symb_prod_den _ _ _ P), mon_cons, (sub_some _ _ F), !Z.mul_assoc. reflexivity.
Qed.

Lemma symb_fold_den : forall l m0 m1, fold_left (symb_step f) l (Some m0) = Some m1 ->
  amap_den rho m1 == amap_den rho m0 + den sub l.
Proof.
  induction l as [|p l IH]; intros m0 m1 H; cbn [fold_left] in H.
  - injection H as <-. rewrite Z.add_0_r. reflexivity.
  - destruct (symb_step f (Some m0) p) as [m'|] eqn:S; [|rewrite fold_left_none in H by reflexivity; discriminate].
    rewrite (IH _ _ H), (symb_step_den _ _ _ S), den_cons, Z.add_assoc. reflexivity.
Qed.

Theorem den_symb_evaluate : forall a r, e_symb_evaluate w a f = Some r -> den rho r == den sub a.
Proof.
  intros a r H. rewrite e_symb_evaluate_eq in H.
  destruct (e_identity a) as [x|] eqn:I; [rewrite (den_identity sub a x I), (sub_some _ _ H); reflexivity|].
  destruct (e_constant a) as [c|] eqn:C; [injection H as <-; rewrite den_val, (den_constant sub a c C); reflexivity|].
  destruct (fold_left (symb_step f) a (Some [])) as [m|] eqn:FL; [|discriminate]. injection H as <-.
  rewrite amap_parts_den. exact (symb_fold_den a [] m FL).
Qed.

Lemma den_env_eqm : forall s1 s2 : Z -> Z, (forall v, s1 v == s2 v) -> forall e, den s1 e == den s2 e.
Proof.
  intros s1 s2 Hs. assert (Mo : forall vs, mon s1 vs == mon s2 vs).
  { induction vs as [|v vs IH]; [reflexivity|]. rewrite !mon_cons, IH, (Hs v). reflexivity. }
  induction e as [|p e IH]; [reflexivity|]. rewrite !den_cons, IH. unfold dpart. rewrite (Mo (snd p)). reflexivity.
Qed.

End Subst.

Theorem eval_add : forall rho a b, eval w (e_add w a b) rho == eval w a rho + eval w b rho.
Proof. intros. rewrite 3 eval_den. apply den_add. Qed.

Theorem eval_mul : forall rho a b, eval w (e_mul w a b) rho == eval w a rho * eval w b rho.
Proof. intros. rewrite 3 eval_den. apply den_mul. Qed.

Theorem eval_neg : forall rho a, eval w (e_neg w a) rho == - eval w a rho.
Proof. intros. rewrite 2 eval_den. apply den_neg. Qed.

Theorem eval_half : forall rho a h, e_half w a = Some h -> 2 * eval w h rho == eval w a rho.
Proof. intros rho a h H. rewrite 2 eval_den. apply (den_half rho a h H). Qed.

Theorem eval_normalize : forall rho a, eval w (e_normalize w a) rho == eval w a rho.
Proof. intros. rewrite 2 eval_den. apply den_normalize. Qed.

Theorem eval_val : forall rho c, eval w (e_val c) rho == c.
Proof. intros. rewrite eval_den, den_val. reflexivity. Qed.

Theorem eval_var : forall rho v, eval w (e_var v) rho == rho v.
Proof. intros. rewrite eval_den, den_var. reflexivity. Qed.

(** substitution: the value of the result under [rho] is the value of the original expression
    under the environment that maps each variable to the value of its substituted expression *)
Theorem eval_symb : forall rho f a r, e_symb_evaluate w a f = Some r ->
  eval w r rho == eval w a (fun v => match f v with Some e' => eval w e' rho | None => 0 end).
Proof.
  intros rho f a r H. rewrite 2 eval_den, (den_symb_evaluate rho f a r H).
  apply den_env_eqm. intros v. unfold sub. destruct (f v); [symmetry; apply eval_den|reflexivity].
Qed.

Theorem eval_constant : forall rho a c, e_constant a = Some c -> eval w a rho == c.
Proof. intros. rewrite eval_den, (den_constant rho a c H). reflexivity. Qed.

Theorem eval_identity : forall rho a x, e_identity a = Some x -> eval w a rho == rho x.
Proof. intros. rewrite eval_den, (den_identity rho a x H). reflexivity. Qed.

Theorem eval_const_inc_of : forall rho a v c, e_const_inc_of a v = Some c -> eval w a rho == rho v + c.
Proof. intros. rewrite eval_den, (den_const_inc_of rho a v c H). reflexivity. Qed.

Theorem eval_prod_of : forall rho a v r, e_prod_of w a v = Some r -> eval w a rho == rho v * eval w r rho.
Proof. intros. rewrite 2 eval_den, (den_prod_of rho a v r H). reflexivity. Qed.

End Hom.
