(** * SmallVecProofs.v — the small vector refines [Vec] and drops every element exactly once
    (property C18).
    Every operation rebuilds the state with [set], [drop_ids] and [bump]; the invariants are proved
    for these, and the case analysis over the operations only supplies the new vector. *)

From Coq Require Import ZArith List Bool Arith Lia Permutation.
From HPBF Require Import SmallVec.
Import ListNotations.

Lemma get_set_same : forall s r v, get (set s r v) r = v.
Proof. intros s [|] v; reflexivity. Qed.
Lemma get_set_other : forall s r v, get (set s r v) (negb r) = get s (negb r).
Proof. intros s [|] v; reflexivity. Qed.
Lemma next_set : forall s r v, next_id (set s r v) = next_id s.
Proof. intros s [|] v; reflexivity. Qed.
Lemma dropped_set : forall s r v, dropped (set s r v) = dropped s.
Proof. intros s [|] v; reflexivity. Qed.
Lemma get_drop : forall s l r, get (drop_ids s l) r = get s r.
Proof. intros s l [|]; reflexivity. Qed.
Lemma get_bump : forall s n r, get (bump s n) r = get s r.
Proof. intros s n [|]; reflexivity. Qed.

Lemma bump_0 : forall s, bump s 0 = s.
Proof. intros [a b k d]. unfold bump. simpl. rewrite Nat.add_0_r. reflexivity. Qed.
Lemma drop_nil : forall s, drop_ids s [] = s.
Proof. intros [a b k d]. unfold drop_ids. simpl. rewrite app_nil_r. reflexivity. Qed.

Lemma view_with_view : forall v l, view (with_view v l) = l.
Proof. intros [l0|l0] l; reflexivity. Qed.

Lemma view_push : forall N v x, view (sv_push N v x) = view v ++ [x].
Proof. intros N [l|l] x; simpl; [destruct (length l <? N)|]; reflexivity. Qed.

Lemma view_push_all : forall N xs v, view (fold_left (sv_push N) xs v) = view v ++ xs.
Proof.
  intros N xs. induction xs as [|x xs IH]; intros v; simpl.
  - rewrite app_nil_r. reflexivity.
  - rewrite IH, view_push, <- app_assoc. reflexivity.
Qed.

Lemma view_if : forall (b : bool) l, view (if b then SInline l else SHeap l) = l.
Proof. intros [|] l; reflexivity. Qed.

Lemma fresh_length : forall vals n, length (fresh n vals) = length vals.
Proof. induction vals as [|v t IH]; intros n; simpl; [reflexivity|rewrite IH; reflexivity]. Qed.

Lemma ids_app : forall a b, ids (a ++ b) = ids a ++ ids b.
Proof. intros. apply map_app. Qed.

Lemma ids_fresh : forall vals n, ids (fresh n vals) = seq n (length vals).
Proof. induction vals as [|v t IH]; intros n; simpl; [reflexivity|]. f_equal. apply IH. Qed.

Lemma retain_split_perm : forall l keep, Permutation (fst (retain_split l keep) ++ snd (retain_split l keep)) l.
Proof.
  induction l as [|x t IH]; intros keep; simpl; [reflexivity|].
  specialize (IH (tl keep)). destruct (retain_split t (tl keep)) as [k r]. simpl in IH.
  destruct (match keep with [] => true | b :: _ => b end); simpl.
  - apply perm_skip, IH.
  - rewrite <- Permutation_middle. apply perm_skip, IH.
Qed.

Lemma dedup_split_perm : forall l prev, Permutation (fst (dedup_split prev l) ++ snd (dedup_split prev l)) l.
Proof.
  induction l as [|x t IH]; intros prev; simpl; [reflexivity|].
  specialize (IH (Some (snd x))). destruct (dedup_split (Some (snd x)) t) as [k r]. simpl in IH.
  destruct (match prev with Some p => Z.eqb p (snd x) | None => false end); simpl.
  - rewrite <- Permutation_middle. apply perm_skip, IH.
  - apply perm_skip, IH.
Qed.

Lemma insert_elem_perm : forall x l, Permutation (insert_elem x l) (x :: l).
Proof.
  intros x l. induction l as [|y t IH]; simpl; [reflexivity|].
  destruct (Z.leb (snd x) (snd y)); [reflexivity|].
  rewrite IH. apply perm_swap.
Qed.

Lemma sort_elems_perm : forall l, Permutation (sort_elems l) l.
Proof.
  induction l as [|x t IH]; simpl; [reflexivity|].
  rewrite insert_elem_perm. apply perm_skip, IH.
Qed.

Lemma kept_length : forall (kept rej l : list elem), Permutation (kept ++ rej) l -> length kept <= length l.
Proof. intros kept rej l P. rewrite <- (Permutation_length P), app_length. lia. Qed.

(** representation invariant: an inline vector never holds more than [N] elements *)
Definition wf (N : nat) (v : svec) : Prop := match v with SInline l => length l <= N | SHeap _ => True end.

Lemma wf_push : forall N v x, wf N v -> wf N (sv_push N v x).
Proof.
  intros N [l|l] x H; simpl in *; [|exact I].
  destruct (length l <? N) eqn:E; simpl; [|exact I].
  apply Nat.ltb_lt in E. rewrite app_length. simpl. lia.
Qed.

Lemma wf_push_all : forall N xs v, wf N v -> wf N (fold_left (sv_push N) xs v).
Proof. intros N xs. induction xs as [|x xs IH]; intros v H; simpl; [exact H|apply IH, wf_push, H]. Qed.

Lemma wf_with_view : forall N v l, wf N v -> length l <= length (view v) -> wf N (with_view v l).
Proof. intros N [l0|l0] l H Hl; simpl in *; [lia|exact I]. Qed.

(** the representation that [with_capacity] and [clone] choose for [k] elements *)
Lemma wf_if : forall N k l, length l <= k -> wf N (if k <=? N then SInline l else SHeap l).
Proof. intros N k l H. destruct (Nat.leb_spec k N); simpl; [lia|exact I]. Qed.

Definition swf (N : nat) (s : sstate) : Prop := wf N (va s) /\ wf N (vb s).

(** [swf] of a state under [drop_ids] or [bump] is [swf] of the state itself, by computation *)
Lemma swf_set : forall N s r v, swf N s -> wf N v -> swf N (set s r v).
Proof. intros N s [|] v [Ha Hb] Hv; split; simpl; assumption. Qed.
Lemma swf_get : forall N s r, swf N s -> wf N (get s r).
Proof. intros N s [|] [Ha Hb]; assumption. Qed.

Lemma step_wf : forall N s o, swf N s -> swf N (fst (sv_step N s o)).
Proof.
  intros N s o H. pose proof (swf_get N s) as G.
  destruct o as [r|r n|r val|r vals|r|r keep|r|src| | |r|r take|r]; simpl; try exact H.
  - (* ONew *) apply swf_set; [exact H|apply Nat.le_0_l].
  - (* OWithCap *) apply swf_set; [exact H|]. apply wf_if, Nat.le_0_l.
  - (* OPush *) apply (swf_set N s r); [exact H|]. apply wf_push, G, H.
  - (* OExtend *) apply (swf_set N s r); [exact H|]. apply wf_push_all, G, H.
  - (* OClear *) apply swf_set; [exact H|]. apply wf_with_view; [apply G, H|apply Nat.le_0_l].
  - (* ORetain *) pose proof (retain_split_perm (view (get s r)) keep) as P.
    destruct (retain_split (view (get s r)) keep) as [kept rej].
    apply swf_set; [exact H|]. apply wf_with_view; [apply G, H|exact (kept_length _ _ _ P)].
  - (* ODedup *) pose proof (dedup_split_perm (view (get s r)) None) as P.
    destruct (dedup_split None (view (get s r))) as [kept rej].
    apply swf_set; [exact H|]. apply wf_with_view; [apply G, H|exact (kept_length _ _ _ P)].
  - (* OClone *) apply (swf_set N (drop_ids s _)); [exact H|]. apply wf_if.
    rewrite fresh_length, map_length. reflexivity.
  - (* OSort *) apply swf_set; [exact H|]. apply wf_with_view; [apply G, H|].
    rewrite (Permutation_length (sort_elems_perm _)). reflexivity.
  - (* OIntoIter *) apply swf_set; [exact H|apply Nat.le_0_l].
Qed.

Lemma run_inv : forall N (P : sstate -> Prop), (forall s o, P s -> P (fst (sv_step N s o))) ->
  forall ops s, P s -> P (snd (sv_run N ops s)).
Proof.
  intros N P step. induction ops as [|o rest IH]; intros s H; simpl; [exact H|].
  specialize (step s o H). destruct (sv_step N s o) as [s' ob].
  specialize (IH s' step). destruct (sv_run N rest s') as [obs sf]. exact IH.
Qed.

Theorem sv_rep_inv : forall N ops, swf N (snd (sv_run N ops sstate0)).
Proof. intros N ops. apply run_inv; [apply step_wf|]. split; apply Nat.le_0_l. Qed.

(** refinement of [Vec]: the list state is a function of the vector state, and every operation
    commutes with it *)
Definition abs (s : sstate) : lstate := {| la := view (va s); lb := view (vb s); lnext := next_id s |}.

Lemma step_abs : forall N s o,
  l_step (abs s) o = (abs (fst (sv_step N s o)), obs_erase (snd (sv_step N s o))).
Proof.
  intros N s o. unfold abs.
  destruct o as [r|r n|r val|r vals|r|r keep|r|src| | |r|r take|r]; try reflexivity.
  - (* ONew *) destruct r; reflexivity.
  - (* OWithCap *) destruct r; unfold sv_step, sv_with_capacity; destruct (n <=? N); reflexivity.
  - (* OPush *) destruct r; simpl; rewrite view_push; reflexivity.
  - (* OExtend *) destruct r; simpl; rewrite view_push_all; reflexivity.
  - (* OClear *) destruct r; simpl; rewrite view_with_view; reflexivity.
  - (* ORetain *) destruct r; simpl; destruct (retain_split _ keep); simpl; rewrite view_with_view; reflexivity.
  - (* ODedup *) destruct r; simpl; destruct (dedup_split None _); simpl; rewrite view_with_view; reflexivity.
  - (* OClone *) destruct src; simpl; rewrite view_if; reflexivity.
  - (* OSort *) destruct r; simpl; rewrite !view_with_view; reflexivity.
  - (* OIntoIter *) destruct r; reflexivity.
  - (* OIter *) destruct r; reflexivity.
Qed.

Lemma run_abs : forall N ops s, map obs_erase (fst (sv_run N ops s)) = l_run ops (abs s).
Proof.
  intros N ops. induction ops as [|o rest IH]; intros s; simpl; [reflexivity|].
  rewrite (step_abs N). destruct (sv_step N s o) as [s' ob]. simpl.
  rewrite <- IH. destruct (sv_run N rest s'). reflexivity.
Qed.

Theorem sv_refines : forall N ops, map obs_erase (fst (sv_run N ops sstate0)) = l_run ops lstate0.
Proof. intros. apply run_abs. Qed.

(** every element is dropped exactly once *)
Definition linear (s : sstate) : Prop := Permutation (sv_final s) (seq 0 (next_id s)).

Lemma final_get : forall s r,
  Permutation (sv_final s) (dropped s ++ ids (view (get s r)) ++ ids (view (get s (negb r)))).
Proof.
  intros s [|]; unfold sv_final; simpl; [|reflexivity].
  apply Permutation_app_head. apply Permutation_app_comm.
Qed.

(** the general operation on register [r]: what it holds afterwards together with what went to
    the ledger is what it held before together with the ids minted *)
Lemma linear_put : forall s r v D n, linear s ->
  Permutation (ids (view v) ++ D) (ids (view (get s r)) ++ seq (next_id s) n) ->
  linear (bump (set (drop_ids s D) r v) n).
Proof.
  intros s r v D n H P. unfold linear in *.
  rewrite (final_get _ r), !get_bump, get_set_same, get_set_other, get_drop. simpl.
  rewrite dropped_set, next_set, seq_app, <- H, (final_get s r). simpl.
  rewrite <- !app_assoc. apply Permutation_app_head.
  rewrite (app_assoc D), (Permutation_app_comm D), P, <- app_assoc.
  apply Permutation_app_head, Permutation_app_comm.
Qed.

Lemma linear_drop : forall s r v D, linear s ->
  Permutation (ids (view v) ++ D) (ids (view (get s r))) -> linear (set (drop_ids s D) r v).
Proof.
  intros s r v D H P. rewrite <- (bump_0 (set _ r v)). apply linear_put; [exact H|].
  rewrite app_nil_r. exact P.
Qed.

Lemma linear_mint : forall s r v n, linear s ->
  Permutation (ids (view v)) (ids (view (get s r)) ++ seq (next_id s) n) -> linear (bump (set s r v) n).
Proof.
  intros s r v n H P. rewrite <- (drop_nil s) at 1. apply linear_put; [exact H|].
  rewrite app_nil_r. exact P.
Qed.

Lemma step_linear : forall N s o, linear s -> linear (fst (sv_step N s o)).
Proof.
  intros N s o H.
  destruct o as [r|r n|r val|r vals|r|r keep|r|src| | |r|r take|r]; simpl; try exact H.
  - (* ONew *) apply linear_drop; [exact H|reflexivity].
  - (* OWithCap *) apply linear_drop; [exact H|]. unfold sv_with_capacity. rewrite view_if. reflexivity.
  - (* OPush *) apply linear_mint; [exact H|]. rewrite view_push, ids_app. reflexivity.
  - (* OExtend *) apply linear_mint; [exact H|]. rewrite view_push_all, ids_app, ids_fresh. reflexivity.
  - (* OClear *) apply linear_drop; [exact H|]. rewrite view_with_view. reflexivity.
  - (* ORetain *) pose proof (retain_split_perm (view (get s r)) keep) as P.
    destruct (retain_split (view (get s r)) keep) as [kept rej].
    apply linear_drop; [exact H|]. rewrite view_with_view, <- ids_app. apply Permutation_map, P.
  - (* ODedup *) pose proof (dedup_split_perm (view (get s r)) None) as P.
    destruct (dedup_split None (view (get s r))) as [kept rej].
    apply linear_drop; [exact H|]. rewrite view_with_view, <- ids_app. apply Permutation_map, P.
  - (* OClone: the old contents of the destination go to the ledger, fresh ids appear *)
    apply linear_put; [exact H|]. rewrite view_if, ids_fresh, map_length. apply Permutation_app_comm.
  - (* OSort *) rewrite <- (drop_nil s) at 1. apply linear_drop; [exact H|].
    rewrite view_with_view, app_nil_r. apply Permutation_map, sort_elems_perm.
  - (* OIntoIter *) apply linear_drop; [exact H|]. rewrite <- ids_app, firstn_skipn. reflexivity.
Qed.

Theorem sv_linear : forall N ops,
  let sf := snd (sv_run N ops sstate0) in Permutation (sv_final sf) (seq 0 (next_id sf)).
Proof. intros N ops. apply (run_inv N linear); [apply step_linear|apply perm_nil]. Qed.

Corollary sv_dropped_once : forall N ops,
  let sf := snd (sv_run N ops sstate0) in
  NoDup (sv_final sf) /\ forall i, i < next_id sf <-> In i (sv_final sf).
Proof.
  intros N ops sf. pose proof (sv_linear N ops) as P. fold sf in P. split.
  - eapply Permutation_NoDup; [symmetry; exact P|apply seq_NoDup].
  - intros i. rewrite P, in_seq. lia.
Qed.
