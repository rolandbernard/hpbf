(** * BigStepProofs.v — the fuel-indexed big-step semantics [BF.bf_exec] and the stack machine
    [Machines.bf_step] define the same terminating behaviours (property C05: the machine the
    oracle runs is the specification). *)
From Coq Require Import ZArith List.
From HPBF Require Import IO BF Machines MachineProofs.
Import ListNotations.
Open Scope Z_scope.

Definition terminal (o : outcome bfst) : Prop := match o with Done _ | Stopped _ => True | _ => False end.

Lemma bf_exec_simple : forall w e f x rest s, simple_cmd x ->
  bf_exec w e (S f) (x :: rest) s =
  match bf_simple w e x s with
  | inl s' => bf_exec w e f rest s'
  | inr s' => Stopped s'
  end.
Proof. intros w e f x rest s H. destruct x; try reflexivity. contradiction. Qed.

Lemma bf_exec_loop : forall w e f body rest s,
  bf_exec w e (S f) (Loop body :: rest) s =
  if cur s =? 0 then bf_exec w e f rest s
  else match bf_exec w e f body s with
       | Done s' => bf_exec w e f (Loop body :: rest) s'
       | o => o
       end.
Proof. reflexivity. Qed.

Lemma bf_exec_mono : forall w e f p s o, bf_exec w e f p s = o -> terminal o ->
  forall f', (f <= f')%nat -> bf_exec w e f' p s = o.
Proof.
  intros w e f. induction f as [|f IH]; intros p s o H T f' L; [subst o; contradiction|].
  destruct f' as [|f']; [destruct (Nat.nle_succ_0 f L)|]. apply le_S_n in L.
  destruct p as [|c rest]; [exact H|].
  destruct (simple_or_loop c) as [Sc|[body ->]].
  - rewrite (bf_exec_simple w e f) in H by exact Sc. rewrite (bf_exec_simple w e f') by exact Sc.
    destruct (bf_simple w e c s); [apply (IH _ _ _ H T _ L)|exact H].
  - rewrite bf_exec_loop in H |- *. destruct (cur s =? 0); [apply (IH _ _ _ H T _ L)|].
    destruct (bf_exec w e f body s) as [s1|s1|s1|q s1|s1] eqn:B; try (subst o; contradiction).
    + rewrite (IH _ _ _ B I _ L). apply (IH _ _ _ H T _ L).
    + rewrite (IH _ _ _ B I _ L). exact H.
Qed.

Definition mk (ctl : list cmd) (k : list (list cmd * list cmd)) (s : bfst) : bfcfg :=
  {| c_ctl := ctl; c_kont := k; c_st := s |}.

(** a terminating execution of [p] is a run of the machine through [p] under any continuation
    [k]: it reaches [mk [] k s'] when [p] is done, and is the whole run when [p] is stopped *)
Lemma big_to_machine : forall w e f p s k, terminal (bf_exec w e f p s) ->
  exists n, forall m,
    bf_steps w e (n + m) (mk p k s) =
    match bf_exec w e f p s with
    | Done s' => bf_steps w e m (mk [] k s')
    | o => o
    end.
Proof.
  intros w e f. induction f as [|f IH]; intros p s k T; [contradiction|].
  destruct p as [|c rest]; [exists 0%nat; reflexivity|].
  destruct (simple_or_loop c) as [Sc|[body ->]].
  - rewrite bf_exec_simple in T |- * by exact Sc. pose proof (bf_step_simple w e c rest k s Sc) as ST.
    destruct (bf_simple w e c s) as [s1|s1].
    + destruct (IH rest s1 k T) as [n Hn]. exists (S n). intros m.
      rewrite <- Hn. apply bf_steps_next, ST.
    + exists 1%nat. intros m. apply bf_steps_final, ST.
  - rewrite bf_exec_loop in T |- *. pose proof (bf_step_loop w e body rest k s) as ST.
    destruct (cur s =? 0); cbv iota in ST.
    + destruct (IH rest s k T) as [n Hn]. exists (S n). intros m.
      rewrite <- Hn. apply bf_steps_next, ST.
    + destruct (bf_exec w e f body s) as [s1|s1|s1|q s1|s1] eqn:B; try contradiction.
      * (* body done: the machine pops the frame, which behaves like re-entering the loop *)
        destruct (IH body s ((body, rest) :: k)) as [n1 H1]; [rewrite B; exact I|].
        destruct (IH _ s1 k T) as [n2 H2]. exists (S (n1 + n2)). intros m.
        cbn [Nat.add]. rewrite <- H2, (bf_steps_next w e _ _ _ ST), <- Nat.add_assoc, H1, B.
        destruct (n2 + m)%nat; [reflexivity|]. cbn [bf_steps]. rewrite bf_step_pop. reflexivity.
      * destruct (IH body s ((body, rest) :: k)) as [n1 H1]; [rewrite B; exact I|].
        exists (S n1). intros m. cbn [Nat.add]. rewrite (bf_steps_next w e _ _ _ ST), H1, B. reflexivity.
Qed.

(** machine => big-step: the continuation is unloaded into the program still to be run *)
Fixpoint flat (k : list (list cmd * list cmd)) : list cmd :=
  match k with [] => [] | (body, rest) :: k' => Loop body :: rest ++ flat k' end.
Definition prog_of (c : bfcfg) : list cmd := c_ctl c ++ flat (c_kont c).

Lemma exec_app : forall w e f a b s, terminal (bf_exec w e f (a ++ b) s) ->
  bf_exec w e f (a ++ b) s =
  match bf_exec w e f a s with Done s1 => bf_exec w e f b s1 | o => o end.
Proof.
  intros w e f. induction f as [|f IH]; intros a b s T; [contradiction|].
  (* the rest of [a] runs with one unit less; [b] after it does not need that unit back *)
  assert (TL : forall a' s', terminal (bf_exec w e f (a' ++ b) s') ->
    bf_exec w e f (a' ++ b) s' =
    match bf_exec w e f a' s' with Done s1 => bf_exec w e (S f) b s1 | o => o end).
  { intros a' s' T'. pose proof (IH a' b s' T') as E. revert T'. rewrite E.
    destruct (bf_exec w e f a' s'); intros T'; try reflexivity.
    symmetry. apply (bf_exec_mono w e f b _ _ eq_refl T'), Nat.le_succ_diag_r. }
  destruct a as [|c a]; [reflexivity|]. rewrite <- app_comm_cons in T |- *.
  destruct (simple_or_loop c) as [Sc|[body ->]].
  - rewrite (bf_exec_simple w e f c) in T by exact Sc. rewrite !(bf_exec_simple w e f c) by exact Sc.
    destruct (bf_simple w e c s); [apply TL, T|reflexivity].
  - rewrite bf_exec_loop in T. rewrite !bf_exec_loop. destruct (cur s =? 0); [apply TL, T|].
    destruct (bf_exec w e f body s); try reflexivity. apply (TL (Loop body :: a)), T.
Qed.

Lemma machine_to_big : forall w e n c, terminal (bf_steps w e n c) ->
  exists f, bf_exec w e f (prog_of c) (c_st c) = bf_steps w e n c.
Proof.
  intros w e n. induction n as [|n IH]; intros c T; [contradiction|].
  assert (NE : forall x rest k s, let c' := {| c_ctl := x :: rest; c_kont := k; c_st := s |} in
    terminal (bf_steps w e (S n) c') -> exists f, bf_exec w e f (x :: rest ++ flat k) s = bf_steps w e (S n) c').
  { intros x rest k s c' T'. subst c'. destruct (simple_or_loop x) as [Sx|[body ->]].
    - pose proof (bf_step_simple w e x rest k s Sx) as ST.
      destruct (bf_simple w e x s) as [s1|s1] eqn:Sm.
      + rewrite (bf_steps_next w e n _ _ ST) in T' |- *. destruct (IH _ T') as [f Hf].
        exists (S f). rewrite bf_exec_simple, Sm by exact Sx. exact Hf.
      + rewrite (bf_steps_final w e n _ _ ST). exists 1%nat.
        rewrite bf_exec_simple, Sm by exact Sx. reflexivity.
    - rewrite (bf_steps_next w e n _ _ (bf_step_loop w e body rest k s)) in T' |- *.
      destruct (IH _ T') as [f Hf]. exists (S f). rewrite bf_exec_loop.
      destruct (cur s =? 0); [exact Hf|].
      (* the run of [body ++ Loop body :: ...] splits at the end of [body] *)
      rewrite <- Hf in T' |- *. symmetry. apply exec_app, T'. }
  destruct c as [[|x rest] k s]; [|apply NE, T].
  destruct k as [|[body krest] k]; [exists 1%nat; reflexivity|].
  cbn [bf_steps] in T |- *. rewrite bf_step_pop in T |- *. apply NE, T.
Qed.

Lemma exec_iff_machine : forall w e p s o, terminal o ->
  (exists f, bf_exec w e f p s = o) <-> (exists n, bf_steps w e n (mk p [] s) = o).
Proof.
  intros w e p s o T. split.
  - intros [f H]. subst o. destruct (big_to_machine w e f p s [] T) as [n Hn].
    exists (n + 1)%nat. rewrite Hn. destruct (bf_exec w e f p s); reflexivity.
  - intros [n H]. subst o. destruct (machine_to_big w e n _ T) as [f Hf]. exists f.
    rewrite <- Hf. unfold prog_of. cbn [mk c_ctl c_kont c_st flat]. rewrite app_nil_r. reflexivity.
Qed.

Theorem big_step_machine : forall w e p o, terminal o ->
  (exists f, bf_exec w e f p bf0 = o) <-> (exists n, bf_steps w e n (mk p [] bf0) = o).
Proof. intros w e p. apply exec_iff_machine. Qed.
