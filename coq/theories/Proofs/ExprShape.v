(** * ExprShape.v — the representation invariant [J] of the part list of [ir::Expr], its preservation by the
    operations that build expressions ([built_J]), and the three decompositions of property C15 that need it
    ([eval_inc_of], [eval_prod_inc_of], [eval_constant_part]). *)

From Coq Require Import ZArith List Bool Lia Permutation.
From HPBF Require Import Cell Expr ExprProofs.
Import ListNotations.
Open Scope Z_scope.

Lemma fold_left_inv : forall {A B} (P : A -> Prop) (g : A -> B -> A), (forall a b, P a -> P (g a b)) ->
  forall l a, P a -> P (fold_left g l a).
Proof. intros A B P g S. induction l as [|b l IH]; intros a Pa; [exact Pa|]. apply IH, S, Pa. Qed.

Lemma lcmp_refl : forall a, lcmp a a = Eq.
Proof. induction a as [|x a IH]; [reflexivity|]. cbn [lcmp]. rewrite Z.compare_refl. exact IH. Qed.

Lemma lcmp_opp : forall a b, lcmp b a = CompOpp (lcmp a b).
Proof.
  induction a as [|x a IH]; intros [|y b]; try reflexivity. cbn [lcmp].
  rewrite (Z.compare_antisym x y). destruct (x ?= y); [apply IH|reflexivity|reflexivity].
Qed.

Lemma lcmp_lt_trans : forall a b c, lcmp a b = Lt -> lcmp b c = Lt -> lcmp a c = Lt.
Proof.
  induction a as [|x a IH]; intros [|y b] [|z c] H1 H2; cbn [lcmp] in *; try discriminate; try reflexivity.
  destruct (Z.compare_spec x y) as [->|L|G]; try discriminate.
  - destruct (y ?= z); [eapply IH; eassumption|reflexivity|discriminate].
  - destruct (Z.compare_spec y z) as [<-|L2|G2]; try discriminate.
    + rewrite (proj2 (Z.compare_lt_iff x y) L). reflexivity.
    + rewrite (proj2 (Z.compare_lt_iff x z) (Z.lt_trans _ _ _ L L2)). reflexivity.
Qed.

(** [<=] of the order [lcmp], by which [add] merges and [sort_parts] sorts *)
Definition lle (a b : list Z) : Prop := lcmp a b <> Gt.

Lemma lle_lt_or_eq : forall a b, lle a b -> lcmp a b = Lt \/ a = b.
Proof. intros a b H. unfold lle in H. destruct (lcmp a b) eqn:C; [right; apply lcmp_eq, C|left; reflexivity|congruence]. Qed.

Lemma lt_lle_trans : forall a b c, lcmp a b = Lt -> lle b c -> lcmp a c = Lt.
Proof. intros a b c H1 H2. destruct (lle_lt_or_eq _ _ H2) as [L| <-]; [exact (lcmp_lt_trans _ _ _ H1 L)|exact H1]. Qed.

Lemma lle_trans : forall a b c, lle a b -> lle b c -> lle a c.
Proof.
  intros a b c H1 H2. destruct (lle_lt_or_eq _ _ H1) as [L| ->]; [|exact H2].
  unfold lle. rewrite (lt_lle_trans _ _ _ L H2). discriminate.
Qed.

Lemma lcmp_nil_r : forall a, lcmp a [] <> Lt.
Proof. destruct a; discriminate. Qed.

(** a constant part or a bare variable *)
Definition small (p : part) : bool := (length (snd p) <=? 1)%nat.

(** [add] merges two part lists as if they were sorted by variable list, but a product with a single part appends
    variables without sorting again, so the lists that occur are in general NOT sorted.  What does hold of them is
    [J]: every small part is strictly greater than every part before it.  That is enough for the two shape
    hypotheses of ExprProofs.v ([J_singles], [J_const_first]). *)
Fixpoint J (l : expr) : Prop :=
  match l with
  | [] => True
  | p :: t => (forall q, In q t -> small q = true -> lcmp (snd p) (snd q) = Lt) /\ J t
  end.

(** [J (p :: t)] unfolds to [above (snd p) t /\ J t] *)
Definition above (vs : list Z) (l : expr) : Prop :=
  forall q, In q l -> small q = true -> lcmp vs (snd q) = Lt.

(** strictly sorted by variable list *)
Fixpoint SS (l : expr) : Prop :=
  match l with
  | [] => True
  | p :: t => (forall q, In q t -> lcmp (snd p) (snd q) = Lt) /\ SS t
  end.

Lemma SS_J : forall l, SS l -> J l.
Proof. induction l as [|p t IH]; [trivial|]. intros [H S]. split; [intros q Hq _; apply H, Hq|apply IH, S]. Qed.

Lemma J_filter : forall f l, J l -> J (filter f l).
Proof.
  intros f. induction l as [|p t IH]; [trivial|]. intros [H Jt]. cbn [filter].
  destruct (f p); [|apply IH, Jt]. split; [|apply IH, Jt].
  intros q Hq. apply H. apply filter_In in Hq. apply Hq.
Qed.

Lemma small_vars : forall p q, snd p = snd q -> small p = small q.
Proof. intros p q E. unfold small. rewrite E. reflexivity. Qed.

Lemma J_vars : forall l l', map snd l = map snd l' -> J l -> J l'.
Proof.
  induction l as [|p t IH]; intros [|p' t'] E; try discriminate; [trivial|].
  cbn [map] in E. injection E as E1 E2. intros [H Jt]. split; [|apply (IH _ E2 Jt)].
  intros q' Hq' Sq'. apply (in_map snd) in Hq'. rewrite <- E2 in Hq'. apply in_map_iff in Hq'.
  destruct Hq' as (q & Eq & Hq). rewrite <- E1, <- Eq.
  apply H; [exact Hq|]. rewrite (small_vars q q' Eq). exact Sq'.
Qed.

Lemma J_singles : forall v l, J l -> singles_unique v l.
Proof.
  intros v. unfold singles_unique. induction l as [|p t IH]; [intros _; apply Nat.le_0_l|]. intros [H Jt]. cbn [filter].
  destruct (is_single v p) eqn:S; [|apply IH, Jt].
  destruct (filter (is_single v) t) as [|q r] eqn:F; [apply Nat.le_refl|exfalso].
  assert (Hq : In q (filter (is_single v) t)) by (rewrite F; left; reflexivity).
  apply filter_In in Hq. destruct Hq as [Hq Sq].
  pose proof (is_single_spec _ _ S) as Ep. pose proof (is_single_spec _ _ Sq) as Eq.
  assert (L : lcmp (snd p) (snd q) = Lt) by (apply H; [exact Hq|unfold small; rewrite Eq; reflexivity]).
  rewrite Ep, Eq, lcmp_refl in L. discriminate.
Qed.

Lemma J_const_first : forall l, J l -> const_first l.
Proof.
  intros [|p t]; [intros _ q []|]. intros [H _] q Hq E. cbn [tl] in Hq.
  apply (lcmp_nil_r (snd p)). rewrite <- E. apply H; [exact Hq|unfold small; rewrite E; reflexivity].
Qed.

Section Ops.
Variable w : Z.

(** the variable lists of a sum are among those of its arguments *)
Lemma add_vars_all : forall (P : list Z -> Prop) a b,
  (forall q, In q a -> P (snd q)) -> (forall q, In q b -> P (snd q)) ->
  forall q, In q (e_add w a b) -> P (snd q).
Proof.
  intros P. induction a as [|pa a' IHa]; intros b Ha Hb q H; [exact (Hb q H)|].
  induction b as [|pb b' IHb]; [rewrite e_add_nil_r in H; exact (Ha q H)|].
  assert (Ha' : forall q, In q a' -> P (snd q)) by (intros x Hx; apply Ha; right; exact Hx).
  assert (Hb' : forall q, In q b' -> P (snd q)) by (intros x Hx; apply Hb; right; exact Hx).
  rewrite e_add_cons in H. destruct (lcmp (snd pa) (snd pb)).
  - cbv zeta in H. destruct (wadd w (fst pa) (fst pb) =? 0); [|destruct H as [<-|H]].
    + exact (IHa b' Ha' Hb' q H).
    + exact (Ha pa (or_introl eq_refl)).
    + exact (IHa b' Ha' Hb' q H).
  - destruct H as [<-|H]; [exact (Ha pa (or_introl eq_refl))|exact (IHa _ Ha' Hb q H)].
  - destruct H as [<-|H]; [exact (Hb pb (or_introl eq_refl))|exact (IHb Hb' H)].
Qed.

Lemma above_add : forall vs a b, above vs a -> above vs b -> above vs (e_add w a b).
Proof.
  intros vs a b Ha Hb. exact (add_vars_all (fun u => (length u <=? 1)%nat = true -> lcmp vs u = Lt) a b Ha Hb).
Qed.

Lemma above_cons : forall u p l, lcmp u (snd p) = Lt -> above (snd p) l -> above u (p :: l).
Proof. intros u p l C H q [<-|Hq] Sq; [exact C|exact (lcmp_lt_trans _ _ _ C (H q Hq Sq))]. Qed.

Lemma J_add : forall a b, J a -> J b -> J (e_add w a b).
Proof.
  induction a as [|pa a' IHa]; intros b Ja Jb; [exact Jb|].
  induction b as [|pb b' IHb]; [rewrite e_add_nil_r; exact Ja|].
  rewrite e_add_cons. pose proof Ja as [Ha Ja']. pose proof Jb as [Hb Jb'].
  destruct (lcmp (snd pa) (snd pb)) eqn:C.
  - cbv zeta. rewrite <- (lcmp_eq _ _ C) in Hb.
    destruct (wadd w (fst pa) (fst pb) =? 0); [exact (IHa b' Ja' Jb')|].
    split; [exact (above_add _ _ _ Ha Hb)|exact (IHa b' Ja' Jb')].
  - split; [exact (above_add _ _ _ Ha (above_cons _ _ _ C Hb))|exact (IHa _ Ja' Jb)].
  - assert (G : lcmp (snd pb) (snd pa) = Lt) by (rewrite lcmp_opp, C; reflexivity).
    split; [exact (above_add _ _ _ (above_cons _ _ _ G Ha) Hb)|exact (IHb Jb')].
Qed.

Lemma J_map_scale : forall (f : part -> Z) (q : part) ps, J ps -> J (map (fun p => (f p, snd p ++ snd q)) ps).
Proof.
  intros f q ps Jp. destruct (snd q) as [|y ys] eqn:EQ.
  - apply (J_vars ps); [|exact Jp]. rewrite map_map. apply map_ext. intros p. cbn [snd]. rewrite app_nil_r. reflexivity.
  - (* every part gets a variable more: only the image of a constant part can be small *)
    induction ps as [|p t IH]; [trivial|]. destruct Jp as [H Jt]. cbn [map]. split; [|apply IH, Jt].
    intros q' Hq' Sq'. apply in_map_iff in Hq'. destruct Hq' as (p' & <- & Hp'). exfalso.
    unfold small in Sq'. cbn [snd] in Sq'. rewrite app_length in Sq'. cbn [length] in Sq'.
    assert (E : snd p' = []) by (destruct (snd p'); [reflexivity|cbn [length] in Sq'; apply Nat.leb_le in Sq'; lia]).
    apply (lcmp_nil_r (snd p)). rewrite <- E. apply H; [exact Hp'|unfold small; rewrite E; reflexivity].
Qed.

Lemma J_scale : forall ps q, J ps -> J (scale_parts w ps q).
Proof. intros ps q Jp. unfold scale_parts. apply J_filter. apply (J_map_scale (fun p => wmul w (fst p) (fst q)) q ps Jp). Qed.

(** weakly sorted by variable list *)
Fixpoint WS (l : expr) : Prop :=
  match l with
  | [] => True
  | p :: t => (forall q, In q t -> lle (snd p) (snd q)) /\ WS t
  end.

Lemma insert_part_WS : forall p l, WS l -> WS (insert_part p l).
Proof.
  intros p. induction l as [|q t IH]; intros W; [split; [intros ? []|exact I]|].
  destruct W as [H Wt]. cbn [insert_part].
  assert (B : lle (snd p) (snd q) -> WS (p :: q :: t)).
  { intros L. split; [|split; assumption]. intros x [<-|Hx]; [exact L|exact (lle_trans _ _ _ L (H x Hx))]. }
  destruct (lcmp (snd p) (snd q)) eqn:C; [apply B; unfold lle; rewrite C; discriminate..|].
  split; [|apply IH, Wt]. intros x Hx. apply (Permutation_in _ (insert_part_perm p t)) in Hx.
  destruct Hx as [<-|Hx]; [|apply H, Hx]. unfold lle. rewrite lcmp_opp, C. discriminate.
Qed.

Lemma sort_parts_WS : forall l, WS (sort_parts l).
Proof. induction l as [|p t IH]; [exact I|]. apply (insert_part_WS p _ IH). Qed.

Lemma WS_NoDup_SS : forall l, WS l -> NoDup (map snd l) -> SS l.
Proof.
  induction l as [|p t IH]; [trivial|]. intros [H Wt] N. cbn [map] in N. apply NoDup_cons_iff in N. destruct N as [NI N].
  split; [|apply IH; assumption]. intros q Hq. destruct (lle_lt_or_eq _ _ (H q Hq)) as [L|E]; [exact L|].
  destruct NI. rewrite E. apply in_map, Hq.
Qed.

Lemma sort_parts_J : forall l, NoDup (map snd l) -> J (sort_parts l).
Proof.
  intros l N. apply SS_J, WS_NoDup_SS; [apply sort_parts_WS|].
  apply (Permutation_NoDup (l := map snd l)); [|exact N]. apply Permutation_map, Permutation_sym, sort_parts_perm.
Qed.

Lemma acc_add_keys : forall k c m x, In x (map fst (acc_add w k c m)) -> k = x \/ In x (map fst m).
Proof.
  intros k c m x. induction m as [|[k' c'] m IH]; cbn [acc_add]; [|destruct (list_eqb k k')]; cbn [map fst In]; tauto.
Qed.

Lemma acc_add_nodup : forall k c m, NoDup (map fst m) -> NoDup (map fst (acc_add w k c m)).
Proof.
  intros k c. induction m as [|[k' c'] m IH]; intros N; cbn [acc_add]; [constructor; [intros []|constructor]|].
  destruct (list_eqb k k') eqn:E; [exact N|]. cbn [map fst] in *. apply NoDup_cons_iff in N. destruct N as [NI N].
  constructor; [|exact (IH N)]. intros Hin.
  destruct (acc_add_keys _ _ _ _ Hin) as [<-|Hm]; [rewrite list_eqb_refl in E; discriminate|exact (NI Hm)].
Qed.

Lemma fold_acc_nodup : forall {A} (key : A -> list Z) (val : A -> Z) (l : list A) m, NoDup (map fst m) ->
  NoDup (map fst (fold_left (fun m x => acc_add w (key x) (val x) m) l m)).
Proof. intros A key val. apply (fold_left_inv (fun m : amap => NoDup (map fst m))). intros m x. apply acc_add_nodup. Qed.

Lemma nodup_map_filter : forall {A B} (f : A -> B) (g : A -> bool) l, NoDup (map f l) -> NoDup (map f (filter g l)).
Proof.
  intros A B f g. induction l as [|x l IH]; intros N; [exact N|].
  cbn [map] in N. apply NoDup_cons_iff in N. destruct N as [NI N].
  cbn [filter]. destruct (g x); [|apply IH, N]. cbn [map]. constructor; [|apply IH, N].
  intros Hin. exact (NI (incl_map f (incl_filter g l) _ Hin)).
Qed.

(** how the results that come out of an accumulator map get [J], whatever their inputs were: the keys are
    distinct and [amap_parts] sorts by key, so the list is strictly sorted *)
Lemma amap_parts_J : forall m, NoDup (map fst m) -> J (amap_parts m).
Proof. intros m N. unfold amap_parts. apply sort_parts_J, nodup_map_filter. rewrite map_map. exact N. Qed.

Lemma J_mul : forall a b, J a -> J b -> J (e_mul w a b).
Proof.
  intros a b Ja Jb. unfold e_mul.
  destruct a as [|pa [|pa2 a]]; [exact I| |].
  - destruct b as [|pb b]; [exact I|]. apply J_scale, Jb.
  - destruct b as [|pb [|pb2 b]]; [exact I|apply J_scale, Ja|].
    (* [mul_general]: by [amap_parts_J], without [Ja] and [Jb] *)
    apply amap_parts_J, (fold_left_inv (fun m : amap => NoDup (map fst m))); [|constructor].
    intros m x. apply (fold_acc_nodup (fun pb0 => sort_z (snd x ++ snd pb0)) (fun pb0 => wmul w (fst x) (fst pb0))).
Qed.

Lemma J_neg : forall a, J a -> J (e_neg w a).
Proof. intros a Ja. apply (J_vars a); [|exact Ja]. unfold e_neg. rewrite map_map. reflexivity. Qed.

Lemma J_half : forall a h, J a -> e_half w a = Some h -> J h.
Proof.
  intros a h Ja H. destruct (if_some _ _ _ H) as [_ <-].
  apply (J_vars a); [|exact Ja]. rewrite map_map. reflexivity.
Qed.

Lemma J_val : forall c, J (e_val c).
Proof. intros c. unfold e_val. destruct (c =? 0); [exact I|split; [intros ? []|exact I]]. Qed.

Lemma J_var : forall v, J (e_var v).
Proof. intros v. split; [intros ? []|exact I]. Qed.

Lemma dedup_length_le : forall l, (length (dedup l) <= length l)%nat.
Proof.
  induction l as [|x t IH]; [apply Nat.le_refl|]. destruct t as [|y t']; [apply Nat.le_refl|].
  rewrite dedup_cons2.
  destruct (x =? y); cbn [length] in *; lia.
Qed.

Lemma dedup_same_len : forall l, length (dedup l) = length l -> dedup l = l.
Proof.
  induction l as [|x t IH]; [reflexivity|]. destruct t as [|y t']; [reflexivity|].
  rewrite dedup_cons2.
  pose proof (dedup_length_le (y :: t')) as LE.
  destruct (x =? y); intros H; cbn [length] in *; [lia|]. f_equal. apply IH. lia.
Qed.

(** summing the runs of a weakly sorted list leaves a strictly sorted one; what is strictly below
    the key of the pending run is strictly below everything that comes out *)
Lemma chunk_SS : forall l h, WS l -> (forall q, In q l -> lle (snd h) (snd q)) ->
  SS (chunk_sum w (Some h) l) /\
  (forall u x, lcmp u (snd h) = Lt -> In x (chunk_sum w (Some h) l) -> lcmp u (snd x) = Lt).
Proof.
  induction l as [|p t IH]; intros h W H; cbn [chunk_sum].
  - split; [split; [intros ? []|exact I]|intros u x L [<-|[]]; exact L].
  - destruct W as [Hp Wt]. destruct (list_eqb (snd h) (snd p)) eqn:E.
    + apply (IH (wadd w (fst h) (fst p), snd h) Wt). intros q Hq. apply H. right. exact Hq.
    + destruct (IH p Wt Hp) as [S B].
      assert (LT : lcmp (snd h) (snd p) = Lt).
      { destruct (lle_lt_or_eq _ _ (H p (or_introl eq_refl))) as [L|Eq]; [exact L|].
        rewrite Eq, list_eqb_refl in E. discriminate. }
      split; [split; [intros x Hx; exact (B _ x LT Hx)|exact S]|].
      intros u x L [<-|Hx]; [exact L|exact (B u x (lcmp_lt_trans _ _ _ L LT) Hx)].
Qed.

Lemma chunk_SS_none : forall l, WS l -> SS (chunk_sum w None l).
Proof. intros [|p t] W; [exact I|]. destruct W as [Hp Wt]. exact (proj1 (chunk_SS t p Wt Hp)). Qed.

Lemma combine_map_in : forall {A B} (g : A -> B) l p, In p l -> In (p, g p) (combine l (map g l)).
Proof.
  intros A B g. induction l as [|x l IH]; intros p []; cbn [map combine]; [left; subst; reflexivity|right; apply IH; assumption].
Qed.

Lemma J_phase1 : forall a, J a -> J (norm_phase1 w a).
Proof.
  intros a Ja. unfold norm_phase1. cbv zeta.
  destruct (existsb _ _); [|exact Ja].
  set (g := fun p : part => if fst p =? half_mod w then (fst p, dedup (snd p)) else p).
  destruct (existsb _ _) eqn:N.
  - (* sorted, then equal keys summed: strictly sorted, whatever [a] was *)
    apply J_filter, SS_J, chunk_SS_none, sort_parts_WS.
  - (* no variable list got shorter, so none changed *)
    apply (J_vars a); [|exact Ja]. rewrite map_map. apply map_ext_in. intros p Hp.
    assert (L : length (snd p) = length (snd (g p))).
    { destruct (Nat.eqb_spec (length (snd p)) (length (snd (g p)))) as [E|NE]; [exact E|exfalso].
      rewrite <- not_true_iff_false in N. apply N, existsb_exists. exists (p, g p).
      split; [apply combine_map_in, Hp|]. cbn [fst snd]. apply negb_true_iff, Nat.eqb_neq, NE. }
    unfold g in *. destruct (fst p =? half_mod w); [|reflexivity]. cbn [snd] in *.
    symmetry. apply dedup_same_len. symmetry. exact L.
Qed.

Lemma J_phase2 : forall a, J a -> J (norm_phase2 w a).
Proof.
  intros a Ja. unfold norm_phase2. cbv zeta.
  destruct (existsb _ _); [|exact Ja].
  assert (V : J (fst (fst (fold_left (phase2_step w) (seq 0 (length a)) (a, [], false))))).
  { apply (J_vars a); [|exact Ja]. rewrite phase2_fold_vars. reflexivity. }
  destruct (snd _); [apply J_filter; exact V|exact V].
Qed.

Lemma J_normalize : forall a, J a -> J (e_normalize w a).
Proof.
  intros a Ja. unfold e_normalize.
  destruct (_ && _); [|exact Ja].
  apply J_phase2, J_phase1, Ja.
Qed.

Definition keys_ok (acc : option amap) : Prop :=
  match acc with Some m => NoDup (map fst m) | None => True end.

Lemma symb_step_keys : forall f acc p, keys_ok acc -> keys_ok (symb_step w f acc p).
Proof.
  intros f [m|] [c [|v vs]] N; try exact I; [exact (acc_add_nodup [] c m N)|].
  rewrite symb_step_cons. destruct (f v) as [ev|]; [|exact I]. destruct (symb_prod w f vs ev) as [pr|]; [|exact I].
  exact (fold_acc_nodup (fun vp : part => snd vp) (fun vp => wmul w c (fst vp)) pr m N).
Qed.

Lemma J_symb : forall a f r, (forall v e, f v = Some e -> J e) -> e_symb_evaluate w a f = Some r -> J r.
Proof.
  (* the result is the image of the one variable, a constant, or comes out of an accumulator map
     ([amap_parts_J]: nothing is asked of [a]) *)
  intros a f r Hf H. rewrite e_symb_evaluate_eq in H.
  destruct (e_identity a) as [v|]; [exact (Hf v r H)|].
  destruct (e_constant a) as [c|]; [injection H as <-; apply J_val|].
  pose proof (fold_left_inv keys_ok (symb_step w f) (symb_step_keys f) a (Some []) (NoDup_nil _)) as R.
  destruct (fold_left (symb_step w f) a (Some [])) as [m|]; [|discriminate]. injection H as <-.
  exact (amap_parts_J m R).
Qed.

Lemma J_inc_of : forall a v r, J a -> e_inc_of a v = Some r -> J r.
Proof.
  intros a v r Ja H. destruct (if_some _ _ _ H) as [_ <-]. apply J_filter, Ja.
Qed.

Lemma J_prod_inc_of : forall a v r m, J a -> e_prod_inc_of a v = Some (r, m) -> J r.
Proof.
  intros a v r m Ja H. destruct (if_some _ _ _ H) as [_ E]. injection E as <- _. apply J_filter, Ja.
Qed.

Lemma J_prod_of : forall a v r, e_prod_of w a v = Some r -> J r.
Proof.
  intros a v r H. destruct (if_some _ _ _ H) as [_ <-].
  apply (fold_left_inv J); [|exact I]. intros acc p Ja. apply J_add; [exact Ja|]. split; [intros ? []|exact I].
Qed.

(** closure under the operations of [impl Expr] (/repo/src/ir.rs) that return an expression: [val], [var], [add], [mul],
    [neg], [half], [normalize], [symb_evaluate], [inc_of], [prod_inc_of] (its first component), [prod_of].  Not among
    them: the components of [split_along], and a renaming through [variables_mut] (opt.rs shifts variables with it). *)
Inductive built : expr -> Prop :=
| b_val : forall c, built (e_val c)
| b_var : forall v, built (e_var v)
| b_add : forall a b, built a -> built b -> built (e_add w a b)
| b_mul : forall a b, built a -> built b -> built (e_mul w a b)
| b_neg : forall a, built a -> built (e_neg w a)
| b_half : forall a h, built a -> e_half w a = Some h -> built h
| b_norm : forall a, built a -> built (e_normalize w a)
| b_sym : forall a f r, built a -> (forall v e, f v = Some e -> built e) -> e_symb_evaluate w a f = Some r -> built r
| b_inc_of : forall a v r, built a -> e_inc_of a v = Some r -> built r
| b_prod_inc_of : forall a v r m, built a -> e_prod_inc_of a v = Some (r, m) -> built r
| b_prod_of : forall a v r, built a -> e_prod_of w a v = Some r -> built r.

Theorem built_J : forall a, built a -> J a.
Proof.
  intros a B.
  induction B;
    [apply J_val | apply J_var | apply J_add | apply J_mul | apply J_neg | eapply J_half | apply J_normalize
    | eapply J_symb | eapply J_inc_of | eapply J_prod_inc_of | eapply J_prod_of]; eassumption.
Qed.
End Ops.

Section Full.
Variable w : Z.
Hypothesis Hw : 0 <= w.
#[local] Existing Instances eqm_setoid Zplus_eqm Zmult_eqm.

Theorem eval_inc_of : forall rho a v r, built w a -> e_inc_of a v = Some r ->
  eqm (2 ^ w) (eval w a rho) (rho v + eval w r rho).
Proof.
  intros rho a v r B H. rewrite 2 (eval_den w Hw), (den_inc_of rho a v r (J_singles v a (built_J w a B)) H). reflexivity.
Qed.

Theorem eval_prod_inc_of : forall rho a v r m, built w a -> e_prod_inc_of a v = Some (r, m) ->
  eqm (2 ^ w) (eval w a rho) (m * rho v + eval w r rho).
Proof.
  intros rho a v r m B H. rewrite 2 (eval_den w Hw), (den_prod_inc_of rho a v r m (J_singles v a (built_J w a B)) H). reflexivity.
Qed.

Theorem eval_constant_part : forall a, built w a -> eqm (2 ^ w) (eval w a (fun _ => 0)) (e_constant_part a).
Proof.
  intros a B. rewrite (eval_den w Hw), (den_constant_part (fun _ => 0) a (J_const_first a (built_J w a B)) (fun _ => eq_refl)). reflexivity.
Qed.
End Full.
