(** * FaultProofs.v — an I/O failure is the last thing that happens (property C08): in every
    engine model a run that is stopped has exactly one failure event, at the very end of its
    trace (or none when the input source is absent, which logs nothing), and a run that is not
    stopped has no failure event at all. *)
From Coq Require Import ZArith List Bool.
From HPBF Require Import Cell IO BF IR BC MachineProofs BigStepProofs LimitedProofs BCProofs.
Import ListNotations.
Open Scope Z_scope.

Definition is_fail (ev : event) : bool := match ev with EvInFail | EvOutFail _ => true | _ => false end.
Definition clean (t : list event) : Prop := forallb (fun ev => negb (is_fail ev)) t = true.
(** [t] is most recent first *)
Definition failed_last (t : list event) : Prop :=
  clean t \/ exists ev rest, t = ev :: rest /\ is_fail ev = true /\ clean rest.

Lemma input_fault : forall e s, clean (trace s) ->
  match do_input e s with IoOk _ i => clean (trace i) | IoFail i => failed_last (trace i) end.
Proof.
  intros e s C. unfold do_input. destruct (in_absent e); [left; exact C|].
  destruct (opt_nat_eqb (in_fail_at e) (in_pos s)).
  - right. cbn [trace]. eexists _, _. split; [reflexivity|split; [reflexivity|exact C]].
  - destruct (nth_error (input e) (in_pos s)); cbn [trace]; unfold clean; cbn [forallb is_fail negb andb]; exact C.
Qed.

Lemma output_fault : forall e s b, clean (trace s) ->
  match do_output e s b with IoOk _ i => clean (trace i) | IoFail i => failed_last (trace i) end.
Proof.
  intros e s b C. unfold do_output. destruct (negb (out_present e)); [exact C|].
  destruct (opt_nat_eqb (out_fail_at e) (out_cnt s)).
  - right. cbn [trace]. eexists _, _. split; [reflexivity|split; [reflexivity|exact C]].
  - cbn [trace]. unfold clean. cbn [forallb is_fail negb andb]. exact C.
Qed.

(** [fault_shape get o] is [io_shape clean failed_last get o] on the traces, which is how
    [ir_fault] and [bc_fault] obtain it from [ir_io_inv] and [bc_io_inv] *)
Definition fault_shape {A} (get : A -> iost) (o : outcome A) : Prop :=
  match o with
  | Stopped s => failed_last (trace (get s))
  | Done s | Interrupted s | OutOfFuel s | Errored _ s => clean (trace (get s))
  end.

Lemma simple_fault : forall w e c s, clean (trace (io s)) ->
  match bf_simple w e c s with inl s' => clean (trace (io s')) | inr s' => failed_last (trace (io s')) end.
Proof.
  intros w e c s C. destruct c; cbn [bf_simple]; try exact C.
  - pose proof (output_fault e (io s) (into_u8 w (cur s)) C) as O. destruct (do_output e (io s) _); exact O.
  - pose proof (input_fault e (io s) C) as O. destruct (do_input e (io s)); exact O.
Qed.

Theorem bf_fault : forall w e f p s, clean (trace (io s)) -> fault_shape io (bf_exec w e f p s).
Proof.
  intros w e f. induction f as [|f IH]; intros p s C; [exact C|].
  destruct p as [|c rest]; [exact C|].
  destruct (simple_or_loop c) as [Sc|[body ->]].
  - rewrite bf_exec_simple by exact Sc. pose proof (simple_fault w e c s C) as S.
    destruct (bf_simple w e c s) as [s1|s1]; [apply IH|]; exact S.
  - rewrite bf_exec_loop. destruct (cur s =? 0); [apply IH; exact C|].
    pose proof (IH body s C) as B. destruct (bf_exec w e f body s); cbn [fault_shape] in *; try exact B. apply IH. exact B.
Qed.

Theorem ir_fault : forall w e lim f p s, clean (trace (ir_io s)) -> fault_shape ir_io (ir_exec w e lim f p s).
Proof. intros w e. exact (ir_io_inv e _ _ (input_fault e) (output_fault e) w). Qed.

Theorem bc_fault : forall w e lim fetch len f s, clean (trace (bc_io s)) -> fault_shape bc_io (bc_exec w e lim fetch len f s).
Proof. intros w e. exact (bc_io_inv e _ _ (input_fault e) (output_fault e) w). Qed.
