(** * BCWfProofs.v — soundness of the bytecode well-formedness checker [BCWf.bc_wf] with respect
    to the path-based statements of property C11.  Each pass of the checker has one lemma saying,
    bit by bit, what its acceptance means at an instruction ([*_sound]). *)
From Coq Require Import ZArith List Bool Lia FMapPositive.
From HPBF Require Import BC BCWf.
Import ListNotations.
Open Scope Z_scope.

Lemma testbit_nonneg : forall a n, Z.testbit a n = true -> 0 <= n.
Proof.
  intros a n H. destruct (Z.ltb_spec n 0) as [Neg|Pos]; [|exact Pos].
  rewrite Z.testbit_neg_r in H by exact Neg. discriminate.
Qed.

Lemma bset_sub_spec : forall a b, bset_sub a b = true <-> (forall n, Z.testbit a n = true -> Z.testbit b n = true).
Proof.
  intros a b. unfold bset_sub. rewrite Z.eqb_eq. split.
  - intros H n Ha. assert (T : Z.testbit (Z.land a (Z.lnot b)) n = false) by (rewrite H; apply Z.bits_0).
    rewrite Z.land_spec, Z.lnot_spec, Ha in T by exact (testbit_nonneg a n Ha). apply negb_false_iff. exact T.
  - intros H. apply Z.bits_inj'. intros n Pos. rewrite Z.land_spec, Z.lnot_spec, Z.bits_0 by exact Pos.
    destruct (Z.testbit a n) eqn:Ha; [|reflexivity]. rewrite (H n Ha). reflexivity.
Qed.

Lemma testbit_bit : forall t n, 0 <= t -> Z.testbit (bit t) n = (n =? t).
Proof. intros t n T. unfold bit. rewrite Z.shiftl_1_l, Z.pow2_bits_eqb by exact T. apply Z.eqb_sym. Qed.

(** also for [t < 0], where [bit t = 0] *)
Lemma bit_only : forall t n, Z.testbit (bit t) n = true -> n = t.
Proof.
  intros t n H. destruct (Z.ltb_spec t 0) as [Neg|Pos].
  - unfold bit in H. rewrite Z.shiftl_1_l, Z.pow_neg_r, Z.bits_0 in H by exact Neg. discriminate.
  - rewrite testbit_bit in H by exact Pos. apply Z.eqb_eq, H.
Qed.

Lemma reg_mask_spec : forall num_regs t, 0 <= Z.min num_regs 16 ->
  Z.testbit (reg_mask num_regs) t = true <-> 0 <= t < Z.min num_regs 16.
Proof. intros num_regs t. apply Z.ones_spec_iff. Qed.

(** [None] for a negative [pc] too, which [Z.to_nat] alone would send to the entry *)
Definition instr_at (code : list binstr) (pc : Z) : option binstr :=
  if pc <? 0 then None else nth_error code (Z.to_nat pc).

Lemma instr_at_nth : forall code pc i, instr_at code pc = Some i ->
  0 <= pc /\ nth_error code (Z.to_nat pc) = Some i.
Proof.
  intros code pc i H. unfold instr_at in H. destruct (pc <? 0) eqn:E; [discriminate|].
  split; [apply Z.ltb_ge; exact E|exact H].
Qed.

Lemma instr_at_range : forall code pc i, instr_at code pc = Some i -> 0 <= pc < Z.of_nat (length code).
Proof.
  intros code pc i H. destruct (instr_at_nth code pc i H) as [P N].
  assert (Z.to_nat pc < length code)%nat by (apply nth_error_Some; congruence). lia.
Qed.

Lemma instr_at_none : forall code pc, instr_at code pc = None -> ~ 0 <= pc < Z.of_nat (length code).
Proof.
  intros code pc H. unfold instr_at in H. destruct (Z.ltb_spec pc 0) as [N|N]; [lia|]. apply nth_error_None in H. lia.
Qed.

Lemma instr_at_cons : forall i rest pc,
  instr_at (i :: rest) pc = if pc =? 0 then Some i else instr_at rest (pc - 1).
Proof.
  intros i rest pc. unfold instr_at. destruct (Z.eqb_spec pc 0) as [->|E0]; [reflexivity|].
  destruct (Z.ltb_spec pc 0) as [N|P].
  - rewrite (proj2 (Z.ltb_lt (pc - 1) 0)) by lia. reflexivity.
  - rewrite (proj2 (Z.ltb_ge (pc - 1) 0)) by lia.
    replace (Z.to_nat pc) with (S (Z.to_nat (pc - 1))) by lia. reflexivity.
Qed.

(** a pass that checks [chk pc i] for every instruction, written like the passes of BCWf.v *)
Lemma pass_spec : forall (chk : Z -> binstr -> bool) (pass : list binstr -> Z -> bool),
  (forall i rest pc, pass (i :: rest) pc = chk pc i && pass rest (pc + 1)) ->
  forall code pc0, pass code pc0 = true ->
  forall pc i, instr_at code pc = Some i -> chk (pc0 + pc) i = true.
Proof.
  intros chk pass Hc code. induction code as [|i0 rest IH]; intros pc0 H pc i HI.
  - destruct (instr_at_nth _ pc i HI) as [_ N]. destruct (Z.to_nat pc); discriminate N.
  - rewrite Hc in H. apply andb_prop in H. destruct H as [H0 Hr]. rewrite instr_at_cons in HI.
    destruct (Z.eqb_spec pc 0) as [->|NZ].
    + injection HI as <-. rewrite Z.add_0_r. exact H0.
    + replace (pc0 + pc) with (pc0 + 1 + (pc - 1)) by lia. exact (IH (pc0 + 1) Hr (pc - 1) i HI).
Qed.

Lemma fwd_valid_sound : forall full inn code, fwd_valid full code 0 inn = true ->
  forall pc i s n, instr_at code pc = Some i -> List.In s (succs pc i) ->
  Z.testbit (aget inn full s) n = true -> Z.testbit (aget inn full pc) n || Z.testbit (defs i) n = true.
Proof.
  intros full inn code V pc i s n HI HS Hn.
  pose proof (pass_spec (fun pc i => forallb (fun s => bset_sub (aget inn full s) (Z.lor (aget inn full pc) (defs i))) (succs pc i))
                        (fun code pc => fwd_valid full code pc inn) (fun _ _ _ => eq_refl) code 0 V pc i HI) as F.
  cbn [Z.add] in F. rewrite forallb_forall in F.
  rewrite <- Z.lor_spec. exact (proj1 (bset_sub_spec _ _) (F s HS) n Hn).
Qed.

Lemma uses_defined_sound : forall full inn code, uses_defined full code 0 inn = true ->
  forall pc i t, instr_at code pc = Some i -> Z.testbit (uses i) t = true -> Z.testbit (aget inn full pc) t = true.
Proof.
  intros full inn code U pc i t HI.
  apply bset_sub_spec, (pass_spec (fun pc i => bset_sub (uses i) (aget inn full pc))
                                  (fun code pc => uses_defined full code pc inn) (fun _ _ _ => eq_refl) code 0 U pc i HI).
Qed.

(** the [out] that [bwd_valid] and [live_ok] of BCWf.v spell as this fold in place; the proofs
    below pass from their text to [out_of] by conversion *)
Definition out_of (lin : arr) (pc : Z) (i : binstr) : Z :=
  fold_left (fun acc s => Z.lor acc (aget lin 0 s)) (succs pc i) 0.

Lemma out_of_spec : forall lin pc i s t, List.In s (succs pc i) -> Z.testbit (aget lin 0 s) t = true ->
  Z.testbit (out_of lin pc i) t = true.
Proof.
  intros lin pc i s t HI HT. unfold out_of.
  assert (G : forall l acc, (Z.testbit acc t = true \/ List.In s l) ->
              Z.testbit (fold_left (fun acc s => Z.lor acc (aget lin 0 s)) l acc) t = true).
  { induction l as [|x l IH]; intros acc [A|B]; cbn [fold_left]; try exact A; try contradiction.
    - apply IH. left. rewrite Z.lor_spec, A. reflexivity.
    - destruct B as [->|B]; apply IH; [left; rewrite Z.lor_spec, HT; apply orb_true_r|right; exact B]. }
  apply G. right. exact HI.
Qed.

Lemma out_less_defs : forall lin pc i s t, List.In s (succs pc i) -> Z.testbit (aget lin 0 s) t = true ->
  Z.testbit (defs i) t = false -> Z.testbit (Z.land (out_of lin pc i) (Z.lnot (defs i))) t = true.
Proof.
  intros lin pc i s t HS HT HD.
  rewrite Z.land_spec, Z.lnot_spec, HD, (out_of_spec lin pc i s t HS HT) by exact (testbit_nonneg _ t HT). reflexivity.
Qed.

Lemma bwd_valid_sound : forall lin code, bwd_valid code 0 lin = true ->
  forall pc i, instr_at code pc = Some i ->
  (forall t, Z.testbit (uses i) t = true -> Z.testbit (aget lin 0 pc) t = true) /\
  (forall s t, List.In s (succs pc i) -> Z.testbit (aget lin 0 s) t = true -> Z.testbit (defs i) t = false ->
     Z.testbit (aget lin 0 pc) t = true).
Proof.
  intros lin code V pc i HI.
  pose proof (pass_spec (fun pc i => bset_sub (Z.lor (uses i) (Z.land (out_of lin pc i) (Z.lnot (defs i)))) (aget lin 0 pc))
                        (fun code pc => bwd_valid code pc lin) (fun _ _ _ => eq_refl) code 0 V pc i HI) as B.
  cbn [Z.add] in B. pose proof (proj1 (bset_sub_spec _ _) B) as S. split.
  - intros t HU. apply S. rewrite Z.lor_spec, HU. reflexivity.
  - intros s t HS HT HD. apply S. rewrite Z.lor_spec, (out_less_defs lin pc i s t HS HT HD). apply orb_true_r.
Qed.

Lemma live_ok_nth : forall num_regs lin code live pc0, live_ok num_regs code live pc0 lin = true ->
  forall n i, nth_error code n = Some i -> is_branch i = false ->
  exists l, nth_error live n = Some l /\
    bset_sub (Z.land (Z.land (out_of lin (pc0 + Z.of_nat n) i) (Z.lnot (defs i))) (reg_mask num_regs)) l = true.
Proof.
  intros num_regs lin code. induction code as [|i0 rest IH]; intros live pc0 H n i HI NB.
  - destruct n; discriminate HI.
  - destruct live as [|l0 lrest]; [discriminate H|]. cbn [live_ok] in H. apply andb_prop in H as [H0 Hr].
    destruct n as [|n].
    + injection HI as ->. rewrite NB in H0. exists l0. split; [reflexivity|]. rewrite Z.add_0_r. exact H0.
    + rewrite Nat2Z.inj_succ, <- Z.add_1_l, Z.add_assoc. exact (IH lrest (pc0 + 1) Hr n i HI NB).
Qed.

Lemma live_ok_sound : forall num_regs lin code live, live_ok num_regs code live 0 lin = true ->
  forall pc i, instr_at code pc = Some i -> is_branch i = false ->
  exists l, nth_error live (Z.to_nat pc) = Some l /\
    forall s t, List.In s (succs pc i) -> Z.testbit (aget lin 0 s) t = true -> Z.testbit (defs i) t = false ->
      t < Z.min num_regs 16 -> Z.testbit l t = true.
Proof.
  intros num_regs lin code live H pc i HI NB. destruct (instr_at_nth code pc i HI) as [P N].
  destruct (live_ok_nth num_regs lin code live 0 H _ i N NB) as (l & HL & HB).
  change (0 + ?x) with x in HB. rewrite (Z2Nat.id pc P) in HB.
  exists l. split; [exact HL|]. intros s t HS HT HD TR. apply (proj1 (bset_sub_spec _ _) HB).
  pose proof (testbit_nonneg _ t HT) as T0.
  rewrite Z.land_spec, (out_less_defs lin pc i s t HS HT HD). apply reg_mask_spec; lia.
Qed.

Section Paths.
Variable code : list binstr.

(** [written pc D]: some control-flow path from the entry reaches [pc] having written exactly the
    temporaries of [D] *)
Inductive written : Z -> Z -> Prop :=
| wr_entry : written 0 0
| wr_step : forall pc D i s, written pc D -> instr_at code pc = Some i -> List.In s (succs pc i) ->
    written s (Z.lor D (defs i)).

(** [needed t pc]: on some path from [pc] the value temporary [t] has at [pc] is read *)
Inductive needed (t : Z) : Z -> Prop :=
| nd_use : forall pc i, instr_at code pc = Some i -> Z.testbit (uses i) t = true -> needed t pc
| nd_pass : forall pc i s, instr_at code pc = Some i -> Z.testbit (defs i) t = false ->
    List.In s (succs pc i) -> needed t s -> needed t pc.

Lemma written_inn : forall full inn, aget inn full 0 = 0 -> fwd_valid full code 0 inn = true ->
  forall pc D, written pc D -> forall n, Z.testbit (aget inn full pc) n = true -> Z.testbit D n = true.
Proof.
  intros full inn E0 V pc D W. induction W as [|pc D i s W IH HI HS]; intros n Hn.
  - rewrite E0, Z.bits_0 in Hn. discriminate.
  - rewrite Z.lor_spec. destruct (Z.testbit (defs i) n) eqn:HD; [apply orb_true_r|].
    pose proof (fwd_valid_sound full inn code V pc i s n HI HS Hn) as F. rewrite HD, orb_false_r in F.
    rewrite (IH n F). reflexivity.
Qed.

Lemma needed_lin : forall lin, bwd_valid code 0 lin = true ->
  forall t pc, needed t pc -> Z.testbit (aget lin 0 pc) t = true.
Proof.
  intros lin V t pc N. induction N as [pc i HI HU|pc i s HI HD HS N IH];
    destruct (bwd_valid_sound lin code V pc i HI) as [USE PASS]; [apply USE; exact HU|exact (PASS s t HS IH HD)].
Qed.
End Paths.

Definition locs_of (i : binstr) : list loc :=
  match i with
  | Add d a b | Sub d a b | Mul d a b => [d; a; b]
  | Copy d a => [d; a]
  | _ => []
  end.
Definition srcs_of (i : binstr) : list loc :=
  match i with
  | Add _ a b | Sub _ a b | Mul _ a b => [a; b]
  | Copy _ a => [a]
  | _ => []
  end.
Definition dst_of (i : binstr) : option loc :=
  match i with Add d _ _ | Sub d _ _ | Mul d _ _ | Copy d _ => Some d | _ => None end.
(** every tape cell an instruction names (operands, conditions, I/O cells) *)
Definition cells_of (i : binstr) : list Z :=
  match i with
  | Scan c _ | BrZ c _ | BrNZ c _ | Inp c | Outp c => [c]
  | _ => flat_map (fun l => match l with Mem k | MemZero k => [k] | _ => [] end) (locs_of i)
  end.
Definition temps_of (i : binstr) : list Z :=
  flat_map (fun l => match l with Tmp t => [t] | _ => [] end) (locs_of i).

Lemma srcs_temps : forall i t, List.In (Tmp t) (srcs_of i) -> List.In t (temps_of i).
Proof.
  intros i t H. apply in_flat_map. exists (Tmp t). split; [|left; reflexivity].
  destruct i; first [exact H|right; exact H].
Qed.

Lemma uses_reads : forall i t, 0 <= t -> List.In (Tmp t) (srcs_of i) -> Z.testbit (uses i) t = true.
Proof.
  intros i t T H.
  assert (L : Z.testbit (loc_tmp_use (Tmp t)) t = true) by (cbn; rewrite testbit_bit by exact T; apply Z.eqb_refl).
  destruct i; cbn [srcs_of List.In] in H; try contradiction; cbn [uses]; rewrite ?Z.lor_spec;
    repeat destruct H as [->|H]; try contradiction; rewrite L, ?orb_true_r; reflexivity.
Qed.

Lemma defs_writes : forall i t, Z.testbit (defs i) t = true -> dst_of i = Some (Tmp t).
Proof.
  intros i t H.
  assert (L : forall l, Z.testbit (loc_tmp_use l) t = true -> l = Tmp t).
  { intros l HL. destruct l; cbn [loc_tmp_use] in HL; try (rewrite Z.bits_0 in HL; discriminate).
    rewrite (bit_only _ _ HL). reflexivity. }
  destruct i; cbn [defs] in H; try (rewrite Z.bits_0 in H; discriminate); cbn [dst_of]; f_equal; apply L; exact H.
Qed.

Section Sound.
Variable num_regs : Z.
Variable fuse : bool.
Variable p : bprog.
Hypothesis WF : bc_wf num_regs fuse p = true.

Let code := bp_code p.
Let len := Z.of_nat (length code).

Lemma wf_parts :
  bp_min p <= 0 <= bp_max p /\ 0 <= bp_temps p /\ length (bp_live p) = length code /\
  all_instr_ok p fuse len 0 code = true /\
  (exists full inn, aget inn full 0 = 0 /\ fwd_valid full code 0 inn = true /\ uses_defined full code 0 inn = true) /\
  (exists lin, bwd_valid code 0 lin = true /\ live_ok num_regs code (bp_live p) 0 lin = true).
Proof.
  pose proof WF as W. unfold bc_wf in W. fold code in W. fold len in W.
  apply andb_prop in W as [W BW]. apply andb_prop in W as [W FW]. apply andb_prop in W as [W AI].
  apply andb_prop in W as [W LN]. apply andb_prop in W as [W T0]. apply andb_prop in W as [MN MX].
  apply Z.leb_le in MN, MX, T0. apply Nat.eqb_eq in LN.
  split; [split; assumption|]. repeat (split; [assumption|]). split.
  - destruct (fwd_fix _ _ code _) as [inn|]; [|discriminate FW].
    apply andb_prop in FW as [FW UD]. apply andb_prop in FW as [E0 FV]. apply Z.eqb_eq in E0.
    eexists _, inn. split; [exact E0|split; assumption].
  - destruct (bwd_fix _ code _) as [lin|]; [|discriminate BW]. exists lin. apply andb_prop, BW.
Qed.

Theorem wf_window_has_zero : bp_min p <= 0 <= bp_max p.
Proof. apply wf_parts. Qed.

Theorem wf_instr : forall pc i, instr_at code pc = Some i -> instr_ok p fuse len pc i = true.
Proof.
  intros pc i H. destruct wf_parts as (_ & _ & _ & A & _).
  exact (pass_spec (instr_ok p fuse len) (fun code pc => all_instr_ok p fuse len pc code) (fun _ _ _ => eq_refl) code 0 A pc i H).
Qed.

Lemma cell_ok_spec : forall k, cell_ok p k = true -> bp_min p <= k <= bp_max p.
Proof. intros k H. apply andb_prop in H as [A B]. split; apply Z.leb_le; assumption. Qed.

Lemma wf_locs : forall pc i l, instr_at code pc = Some i -> List.In l (locs_of i) ->
  match l with
  | Mem k | MemZero k => bp_min p <= k <= bp_max p
  | Tmp t => 0 <= t < bp_temps p
  | Imm _ => True
  end.
Proof.
  intros pc i l H HI. pose proof (wf_instr pc i H) as OK.
  assert (LOK : loc_ok p fuse l = true).
  { destruct i; cbn [locs_of List.In] in HI; try contradiction; cbn [instr_ok] in OK;
      repeat apply andb_prop in OK as [OK ?]; repeat destruct HI as [<-|HI]; try contradiction; assumption. }
  destruct l; cbn [loc_ok] in LOK; [apply cell_ok_spec, LOK|apply cell_ok_spec, (andb_prop _ _ LOK)| |exact I].
  apply andb_prop in LOK as [A B]. split; [apply Z.leb_le, A|apply Z.ltb_lt, B].
Qed.

Theorem wf_branch_targets : forall pc i s, instr_at code pc = Some i -> List.In s (succs pc i) -> 0 <= s <= len.
Proof.
  intros pc i s H HS. pose proof (wf_instr pc i H) as OK.
  assert (N : 0 <= pc + 1 <= len) by (pose proof (instr_at_range code pc i H); unfold len; lia).
  (* only a taken branch does not fall through; its target is what [instr_ok] checks *)
  destruct i; cbn [succs List.In] in HS; try (destruct HS as [<-|[]]; exact N).
  all: destruct HS as [<-|[<-|[]]]; [|exact N].
  all: cbn [instr_ok] in OK; apply andb_prop in OK as [OK B2]; apply andb_prop in OK as [_ B1].
  all: split; apply Z.leb_le; assumption.
Qed.

Theorem wf_cells_in_window : forall pc i k, instr_at code pc = Some i -> List.In k (cells_of i) ->
  bp_min p <= k <= bp_max p.
Proof.
  intros pc i k H HK. pose proof (wf_instr pc i H) as OK.
  (* an instruction with operands: the cell is one of them; otherwise it is the one cell [instr_ok] checks *)
  assert (LO : List.In k (flat_map (fun l => match l with Mem k | MemZero k => [k] | _ => [] end) (locs_of i)) ->
               bp_min p <= k <= bp_max p).
  { intros HF. apply in_flat_map in HF. destruct HF as (l & HL & HK'). pose proof (wf_locs pc i l H HL) as S.
    destruct l; cbn [List.In] in HK'; try contradiction; destruct HK' as [<-|[]]; exact S. }
  destruct i; cbn [cells_of] in HK; try exact (LO HK).
  all: destruct HK as [<-|[]]; apply cell_ok_spec.
  all: cbn [instr_ok] in OK; rewrite ?andb_true_iff in OK; apply OK.
Qed.

Theorem wf_temps_in_range : forall pc i t, instr_at code pc = Some i -> List.In t (temps_of i) -> 0 <= t < bp_temps p.
Proof.
  intros pc i t H HT. apply in_flat_map in HT. destruct HT as (l & HL & HT). pose proof (wf_locs pc i l H HL) as S.
  destruct l; cbn [List.In] in HT; try contradiction. destruct HT as [<-|[]]. exact S.
Qed.

Theorem wf_defined_before_use : forall pc D i t, written code pc D -> instr_at code pc = Some i ->
  Z.testbit (uses i) t = true -> Z.testbit D t = true.
Proof.
  intros pc D i t W HI HU. destruct wf_parts as (_ & _ & _ & _ & (full & inn & E0 & V & U) & _).
  exact (written_inn code full inn E0 V pc D W t (uses_defined_sound full inn code U pc i t HI HU)).
Qed.

Theorem wf_live_declared : forall pc i s t, instr_at code pc = Some i -> is_branch i = false ->
  List.In s (succs pc i) -> needed code t s -> Z.testbit (defs i) t = false ->
  t < num_regs -> t < 16 ->
  exists l, nth_error (bp_live p) (Z.to_nat pc) = Some l /\ Z.testbit l t = true.
Proof.
  intros pc i s t HI NB HS N ND T1 T2. destruct wf_parts as (_ & _ & _ & _ & _ & (lin & V & L)).
  destruct (live_ok_sound num_regs lin code (bp_live p) L pc i HI NB) as (l & HL & HB).
  exists l. split; [exact HL|]. apply (HB s t HS (needed_lin code lin V t s N) ND). lia.
Qed.

End Sound.

(** for C13 (live masks name register temporaries only); independent of [bc_wf] *)
Theorem live_regs_ok_sound : forall num_regs p, live_regs_ok num_regs p = true -> 0 <= num_regs ->
  forall pc l t, nth_error (bp_live p) pc = Some l -> Z.testbit l t = true -> 0 <= t < Z.min num_regs 16.
Proof.
  intros num_regs p LR NR pc l t HL HT. unfold live_regs_ok in LR.
  rewrite forallb_forall in LR. specialize (LR l (nth_error_In _ _ HL)).
  apply andb_prop in LR. destruct LR as [_ LR].
  apply reg_mask_spec; [lia|exact (proj1 (bset_sub_spec _ _) LR t HT)].
Qed.
