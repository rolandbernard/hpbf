(** * BCProofs.v — the bytecode semantics [BC.bc_exec] one instruction at a time ([bc_exec_step]);
    a fact about a run is a fact about one instruction carried along by induction on the fuel.
    So: an accepted program never fetches outside its code ([exec_safe], C11), and budget-limited
    execution is a prefix of unlimited execution ([exec_any_budget], C07 for the bytecode interpreter). *)
From Coq Require Import ZArith List Bool Lia FMapPositive.
From HPBF Require Import Cell IO BC BCWf BCWfProofs MachineProofs LimitedProofs.
Import ListNotations.
Open Scope Z_scope.

Lemma code_map_below : forall l i m k, k < i ->
  PositiveMap.find (key_of k) (code_map l i m) = PositiveMap.find (key_of k) m.
Proof.
  induction l as [|x l IH]; intros i m k H; cbn [code_map]; [reflexivity|].
  rewrite IH by lia. apply PositiveMap.gso. intros E. apply key_of_inj in E. lia.
Qed.

Lemma code_map_find : forall l i m k, i <= k ->
  PositiveMap.find (key_of k) (code_map l i m) =
  match nth_error l (Z.to_nat (k - i)) with Some x => Some x | None => PositiveMap.find (key_of k) m end.
Proof.
  induction l as [|x l IH]; intros i m k H; cbn [code_map].
  - destruct (Z.to_nat (k - i)); reflexivity.
  - destruct (Z.eq_dec k i) as [->|N].
    + rewrite code_map_below, Z.sub_diag by lia. apply PositiveMap.gss.
    + rewrite IH by lia. replace (Z.to_nat (k - i)) with (S (Z.to_nat (k - (i + 1)))) by lia. cbn [nth_error].
      destruct (nth_error l _); [reflexivity|]. apply PositiveMap.gso. intros E. apply key_of_inj in E. lia.
Qed.

Lemma fetch_instr_at : forall p pc, fetch_of p pc = instr_at (bp_code p) pc.
Proof.
  intros p pc. unfold fetch_of, instr_at. destruct (pc <? 0) eqn:N; [reflexivity|]. apply Z.ltb_ge in N.
  rewrite code_map_find, Z.sub_0_r by exact N.
  destruct (nth_error (bp_code p) (Z.to_nat pc)); [reflexivity|apply PositiveMap.gempty].
Qed.

(** [bc_cost] is the charge [limit] makes before the instruction in limited execution ([limit 1]
    before every branch, [limit usize::MAX] before an entered stationary scan); [bc_eff] is what the instruction then does to the state short of the
    program counter, or the outcome with which the run ends here, and is the same in both modes;
    [bc_goto] moves the program counter *)
Definition bc_cost (i : binstr) (s : bcst) : option Z :=
  match i with
  | BrZ _ _ | BrNZ _ _ => Some 1
  | Scan c sh => if (sh =? 0) && negb (bc_mem s c =? 0) then Some usize_max else None
  | _ => None
  end.

Definition bc_charge (lim : bool) (i : binstr) (s : bcst) : option bcst :=
  match bc_cost i s with Some c => if lim then bc_limit c s else Some s | None => Some s end.

Definition bc_eff (w : Z) (e : env) (fuel : nat) (i : binstr) (s : bcst) : bcst + outcome bcst :=
  match i with
  | Noop | BrZ _ _ | BrNZ _ _ => inl s
  | Scan c sh => match bc_scan fuel c sh s with Some s' => inl s' | None => inr (OutOfFuel s) end
  | MovP sh => inl (bc_move s sh)
  | Inp d =>
      match do_input e (bc_io s) with
      | IoOk b i' => inl (bc_set_mem (bc_set_io s i') d (from_u8 w b))
      | IoFail i' => inr (Stopped (bc_set_io s i'))
      end
  | Outp src =>
      match do_output e (bc_io s) (into_u8 w (bc_mem s src)) with
      | IoOk _ i' => inl (bc_set_io s i')
      | IoFail i' => inr (Stopped (bc_set_io s i'))
      end
  | Add d a b => inl (bc_binop w (wadd w) s d a b)
  | Sub d a b => inl (bc_binop w (fun x y => wadd w x (wneg w y)) s d a b)
  | Mul d a b => inl (bc_binop w (wmul w) s d a b)
  | Copy d a => let '(v, s1) := bc_read w s a in inl (bc_write s1 d v)
  end.

Definition bc_goto (i : binstr) (s : bcst) : bcst :=
  match i with
  | BrZ c off => if bc_mem s c =? 0 then bc_set_pc s (bc_pc s + off) else next s
  | BrNZ c off => if bc_mem s c =? 0 then next s else bc_set_pc s (bc_pc s + off)
  | _ => next s
  end.

Lemma bc_exec_step : forall w e lim fetch len f s,
  bc_exec w e lim fetch len (S f) s =
  if bc_pc s =? len then Done s
  else match fetch (bc_pc s) with
       | None => Errored (bc_pc s) s
       | Some i => match bc_charge lim i s with
                   | None => Interrupted (bc_set_budget s 0)
                   | Some s0 => match bc_eff w e (S f) i s0 with
                                | inl s1 => bc_exec w e lim fetch len f (bc_goto i s1)
                                | inr o => o
                                end
                   end
       end.
Proof.
  intros w e lim fetch len f s. cbn [bc_exec]. destruct (bc_pc s =? len); [reflexivity|].
  destruct (fetch (bc_pc s)) as [i|]; [|reflexivity].
  destruct i as [|c sh|sh|d|src|c off|c off|d a b|d a b|d a b|d a]; unfold bc_charge; cbn [bc_cost bc_eff bc_goto];
    try reflexivity.
  - (* only a stationary scan that is entered is charged for; one that is not entered ends at once *)
    destruct lim; cbn [andb].
    + destruct (sh =? 0); cbn [andb]; [destruct (bc_mem s c =? 0) eqn:C0; cbn [negb]|].
      * cbn [bc_scan]. rewrite C0. reflexivity.
      * destruct (bc_limit usize_max s) as [s0|]; [destruct (bc_scan (S f) c sh s0)|]; reflexivity.
      * destruct (bc_scan (S f) c sh s); reflexivity.
    + destruct ((sh =? 0) && negb (bc_mem s c =? 0)); destruct (bc_scan (S f) c sh s); reflexivity.
  - destruct (do_input e (bc_io s)); reflexivity.
  - destruct (do_output e (bc_io s) _); reflexivity.
  - destruct (if lim then bc_limit 1 s else Some s) as [s0|]; [destruct (bc_mem s0 c =? 0)|]; reflexivity.
  - destruct (if lim then bc_limit 1 s else Some s) as [s0|]; [destruct (bc_mem s0 c =? 0)|]; reflexivity.
  - destruct (bc_read w s a); reflexivity.
Qed.

Lemma charge_false : forall i s, bc_charge false i s = Some s.
Proof. intros i s. unfold bc_charge. destruct (bc_cost i s); reflexivity. Qed.

Definition sb := bc_set_budget.

Lemma charge_spec : forall lim i s,
  match bc_charge lim i s with Some s0 => exists b, s0 = sb s b | None => lim = true end.
Proof.
  intros lim i s. assert (S0 : exists b, s = sb s b) by (exists (bc_budget s); destruct s; reflexivity).
  unfold bc_charge, bc_limit. destruct (bc_cost i s) as [c|]; [|exact S0]. destruct lim; [|exact S0].
  destruct (bc_budget s <=? c); [reflexivity|]. eexists. reflexivity.
Qed.

Lemma goto_succs : forall i s, List.In (bc_pc (bc_goto i s)) (succs (bc_pc s) i).
Proof.
  intros i s. destruct i; try (left; reflexivity); cbn [bc_goto succs];
    destruct (bc_mem s _ =? 0); cbn; tauto.
Qed.

Lemma goto_io : forall i s, bc_io (bc_goto i s) = bc_io s.
Proof. intros i s. destruct i; try reflexivity; cbn [bc_goto]; destruct (bc_mem s _ =? 0); reflexivity. Qed.

Definition same_ctl (s s' : bcst) : Prop := bc_pc s' = bc_pc s /\ bc_io s' = bc_io s.

Lemma ctl_refl : forall s, same_ctl s s. Proof. split; reflexivity. Qed.
Lemma ctl_trans : forall s t u, same_ctl s t -> same_ctl t u -> same_ctl s u.
Proof. intros s t u [A B] [A' B']. split; congruence. Qed.

Lemma read_ctl : forall w s l v s', bc_read w s l = (v, s') -> same_ctl s s'.
Proof. intros w s l v s' H. destruct l; injection H as _ <-; split; reflexivity. Qed.
Lemma write_ctl : forall s l v, same_ctl s (bc_write s l v).
Proof. intros s l v. destruct l; split; reflexivity. Qed.
Lemma binop_ctl : forall w op s d a b, same_ctl s (bc_binop w op s d a b).
Proof.
  intros w op s d a b. unfold bc_binop. destruct (loc_eqb d a).
  all: destruct (bc_read w s _) as [v1 s1] eqn:R1; destruct (bc_read w s1 _) as [v2 s2] eqn:R2;
    exact (ctl_trans _ _ _ (read_ctl _ _ _ _ _ R1) (ctl_trans _ _ _ (read_ctl _ _ _ _ _ R2) (write_ctl _ _ _))).
Qed.
Lemma scan_ctl : forall f c sh s s', bc_scan f c sh s = Some s' -> same_ctl s s'.
Proof.
  induction f as [|f IH]; intros c sh s s' H; [discriminate|]. cbn [bc_scan] in H.
  destruct (bc_mem s c =? 0); [injection H as <-; apply ctl_refl|exact (IH _ _ _ _ H)].
Qed.

Lemma pc_read : forall w s l, bc_pc (snd (bc_read w s l)) = bc_pc s.
Proof. intros w s l. exact (proj1 (read_ctl w s l _ _ (surjective_pairing _))). Qed.
Lemma io_read : forall w s l, bc_io (snd (bc_read w s l)) = bc_io s.
Proof. intros w s l. exact (proj2 (read_ctl w s l _ _ (surjective_pairing _))). Qed.
Lemma pc_write : forall s l v, bc_pc (bc_write s l v) = bc_pc s.
Proof. intros s l v. exact (proj1 (write_ctl s l v)). Qed.
Lemma io_write : forall s l v, bc_io (bc_write s l v) = bc_io s.
Proof. intros s l v. exact (proj2 (write_ctl s l v)). Qed.
Lemma pc_binop : forall w op s d a b, bc_pc (bc_binop w op s d a b) = bc_pc s.
Proof. intros w op s d a b. exact (proj1 (binop_ctl w op s d a b)). Qed.
Lemma io_binop : forall w op s d a b, bc_io (bc_binop w op s d a b) = bc_io s.
Proof. intros w op s d a b. exact (proj2 (binop_ctl w op s d a b)). Qed.

(** [P], [Q] as in [LimitedProofs.ir_io_inv] *)
Lemma eff_inv : forall e (P Q : iost -> Prop),
  (forall i, P i -> io_step P Q (do_input e i)) -> (forall i b, P i -> io_step P Q (do_output e i b)) ->
  forall w fuel i s, P (bc_io s) ->
  match bc_eff w e fuel i s with
  | inl s1 => bc_pc s1 = bc_pc s /\ P (bc_io s1)
  | inr o => io_shape P Q bc_io o /\ match o with Errored _ _ | Interrupted _ => False | _ => True end
  end.
Proof.
  intros e P Q HI HO w fuel i s C.
  assert (CT : forall s1, same_ctl s s1 -> bc_pc s1 = bc_pc s /\ P (bc_io s1))
    by (intros s1 [A B]; split; [exact A|rewrite B; exact C]).
  destruct i as [|c sh|sh|d|src|c off|c off|d a b|d a b|d a b|d a]; cbn [bc_eff];
    try (apply CT, ctl_refl); try (apply CT, binop_ctl).
  - destruct (bc_scan fuel c sh s) as [s'|] eqn:SC; [apply CT, (scan_ctl _ _ _ _ _ SC)|split; [exact C|exact I]].
  - apply CT. split; reflexivity.
  - pose proof (HI (bc_io s) C) as O. destruct (do_input e (bc_io s)); split; try exact O; reflexivity.
  - pose proof (HO (bc_io s) (into_u8 w (bc_mem s src)) C) as O.
    destruct (do_output e (bc_io s) _); split; try exact O; reflexivity.
  - destruct (bc_read w s a) as [v s1] eqn:R. apply CT, (ctl_trans _ _ _ (read_ctl _ _ _ _ _ R)), write_ctl.
Qed.

Lemma bc_io_inv : forall e (P Q : iost -> Prop),
  (forall i, P i -> io_step P Q (do_input e i)) -> (forall i b, P i -> io_step P Q (do_output e i b)) ->
  forall w lim fetch len f s, P (bc_io s) -> io_shape P Q bc_io (bc_exec w e lim fetch len f s).
Proof.
  intros e P Q HI HO w lim fetch len f. induction f as [|f IH]; intros s C; [exact C|].
  rewrite bc_exec_step. destruct (bc_pc s =? len); [exact C|].
  destruct (fetch (bc_pc s)) as [i|]; [|exact C].
  pose proof (charge_spec lim i s) as CH. destruct (bc_charge lim i s) as [s0|]; [destruct CH as [b ->]|exact C].
  pose proof (eff_inv e P Q HI HO w (S f) i (sb s b) C) as E.
  destruct (bc_eff w e (S f) i _) as [s1|o]; [|apply E]. apply IH. rewrite goto_io. apply E.
Qed.

Lemma bc_exec_extends : forall w e lim fetch len f s,
  extends (trace (bc_io s)) (trace (bc_io (outcome_state (bc_exec w e lim fetch len f s)))).
Proof.
  intros w e lim fetch len f s. apply io_shape_same with (P := fun j => extends (trace (bc_io s)) (trace j)).
  apply (bc_io_inv e _ _ (input_extends e _) (output_extends e _)), extends_refl.
Qed.

Lemma eff_ctl : forall w e fuel i s,
  match bc_eff w e fuel i s with
  | inl s1 => bc_pc s1 = bc_pc s
  | inr (Errored _ _) | inr (Interrupted _) => False
  | inr _ => True
  end.
Proof.
  intros w e fuel i s.
  assert (T : forall A (r : io_res A), io_step (fun _ => True) (fun _ => True) r) by (intros A r; destruct r; exact I).
  pose proof (eff_inv e _ _ (fun j _ => T _ (do_input e j)) (fun j b _ => T _ (do_output e j b)) w fuel i s I) as H.
  destruct (bc_eff w e fuel i s) as [s1|o]; [apply H|destruct o; solve [exact I|apply H]].
Qed.

Section Safe.
Variable num_regs : Z.
Variable fuse : bool.
Variable p : bprog.
Hypothesis WF : bc_wf num_regs fuse p = true.
Variable w : Z.
Variable e : env.
Variable lim : bool.

Let len := Z.of_nat (length (bp_code p)).

Theorem exec_safe : forall fuel s, 0 <= bc_pc s <= len ->
  match bc_exec w e lim (fetch_of p) len fuel s with Errored _ _ => False | _ => True end.
Proof.
  induction fuel as [|f IH]; intros s PC; [exact I|].
  rewrite bc_exec_step. destruct (bc_pc s =? len) eqn:E; [exact I|]. apply Z.eqb_neq in E.
  rewrite fetch_instr_at. destruct (instr_at (bp_code p) (bc_pc s)) as [i|] eqn:IA; [|apply (instr_at_none _ _ IA); unfold len in PC; lia].
  pose proof (charge_spec lim i s) as CH. destruct (bc_charge lim i s) as [s0|]; [destruct CH as [b ->]|exact I].
  pose proof (eff_ctl w e (S f) i (sb s b)) as EC.
  destruct (bc_eff w e (S f) i _) as [s1|o]; [|destruct o; solve [exact I|exact EC]].
  pose proof (goto_succs i s1) as G. rewrite EC in G.
  exact (IH _ (wf_branch_targets num_regs fuse p WF (bc_pc s) i _ IA G)).
Qed.

Corollary run_safe : forall budget fuel,
  match bc_run w e lim budget fuel p with Errored _ _ => False | _ => True end.
Proof.
  intros budget fuel. unfold bc_run. destruct (lim && (budget =? 0)); [exact I|].
  apply exec_safe. cbn. unfold len. lia.
Qed.
End Safe.

(** The budget is carried through every operation untouched. *)
Lemma sb_read : forall w s l b, bc_read w (sb s b) l = (fst (bc_read w s l), sb (snd (bc_read w s l)) b).
Proof. intros w s l b. destruct l; reflexivity. Qed.
Lemma sb_write : forall s l v b, bc_write (sb s b) l v = sb (bc_write s l v) b.
Proof. intros s l v b. destruct l; reflexivity. Qed.
Lemma sb_binop : forall w op s d a b0 b, bc_binop w op (sb s b) d a b0 = sb (bc_binop w op s d a b0) b.
Proof.
  intros w op s d a b0 b. unfold bc_binop. destruct (loc_eqb d a).
  all: rewrite sb_read; destruct (bc_read w s _) as [v1 s1]; cbn [fst snd];
    rewrite sb_read; destruct (bc_read w s1 _) as [v2 s2]; cbn [fst snd]; apply sb_write.
Qed.
Lemma sb_scan : forall f c sh s b, bc_scan f c sh (sb s b) = option_map (fun t => sb t b) (bc_scan f c sh s).
Proof.
  induction f as [|f IH]; intros c sh s b; [reflexivity|]. cbn [bc_scan].
  change (bc_mem (sb s b) c) with (bc_mem s c). destruct (bc_mem s c =? 0); [reflexivity|].
  change (bc_move (sb s b) sh) with (sb (bc_move s sh) b). apply IH.
Qed.

Definition omapb (o : outcome bcst) (b : Z) : outcome bcst :=
  match o with
  | Done s => Done (sb s b) | Stopped s => Stopped (sb s b) | Interrupted s => Interrupted (sb s b)
  | Errored p s => Errored p (sb s b) | OutOfFuel s => OutOfFuel (sb s b)
  end.

Lemma goto_sb : forall i s b, bc_goto i (sb s b) = sb (bc_goto i s) b.
Proof.
  intros i s b. destruct i; try reflexivity; cbn [bc_goto];
    change (bc_mem (sb s b) ?c) with (bc_mem s c); destruct (bc_mem s _ =? 0); reflexivity.
Qed.

Lemma scan0_none : forall f c s, (bc_mem s c =? 0) = false -> bc_scan f c 0 s = None.
Proof.
  induction f as [|f IH]; intros c s H; [reflexivity|]. cbn [bc_scan]. rewrite H. apply IH.
  unfold bc_mem, bc_move in *. cbn [bc_tape bc_ptr]. rewrite Z.add_0_r. exact H.
Qed.

Lemma eff_sb : forall w e fuel i s B, bc_eff w e fuel i (sb s B) =
  match bc_eff w e fuel i s with inl s1 => inl (sb s1 B) | inr o => inr (omapb o B) end.
Proof.
  intros w e fuel i s B.
  destruct i as [|c sh|sh|d|src|c off|c off|d a b|d a b|d a b|d a]; cbn [bc_eff]; rewrite ?sb_binop; try reflexivity.
  - rewrite sb_scan. destruct (bc_scan fuel c sh s); reflexivity.
  - change (bc_io (sb s B)) with (bc_io s). destruct (do_input e (bc_io s)); reflexivity.
  - change (bc_io (sb s B)) with (bc_io s). change (bc_mem (sb s B) src) with (bc_mem s src).
    destruct (do_output e (bc_io s) _); reflexivity.
  - rewrite sb_read. destruct (bc_read w s a) as [v s1]. cbn [fst snd]. rewrite sb_write. reflexivity.
Qed.

(** The unlimited run, whatever budget [B] it carries, does what the limited (or another
    unlimited) run does from the same state, until the latter is interrupted. *)
Lemma exec_any_budget : forall w e lim fetch len f s B,
  match bc_exec w e lim fetch len f s with
  | Interrupted s' =>
      lim = true /\ bc_budget s' = 0 /\
      extends (trace (bc_io s')) (trace (bc_io (outcome_state (bc_exec w e false fetch len f (sb s B)))))
  | o => bc_exec w e false fetch len f (sb s B) = omapb o B
  end.
Proof.
  intros w e lim fetch len f. induction f as [|f IH]; intros s B; [reflexivity|].
  pose proof (bc_exec_extends w e false fetch len (S f) (sb s B)) as X.
  pose proof (bc_exec_step w e false fetch len f (sb s B)) as HU. change (bc_pc (sb s B)) with (bc_pc s) in HU.
  set (U := bc_exec w e false fetch len (S f) (sb s B)) in *. clearbody U.
  rewrite bc_exec_step. destruct (bc_pc s =? len); [exact HU|]. destruct (fetch (bc_pc s)) as [i|]; [|exact HU].
  rewrite charge_false in HU.
  pose proof (charge_spec lim i s) as CH. destruct (bc_charge lim i s) as [s0|]; [|exact (conj CH (conj eq_refl X))].
  (* the charged state differs from [s] in its budget only, which the unlimited run replaces by [B] *)
  destruct CH as [b ->]. change (sb s B) with (sb (sb s b) B) in HU. rewrite eff_sb in HU.
  pose proof (eff_ctl w e (S f) i (sb s b)) as EC.
  destruct (bc_eff w e (S f) i _) as [s1|o].
  - rewrite goto_sb in HU. subst U. apply IH.
  - destruct o; solve [exact HU|contradiction].
Qed.

Lemma unlimited_budget : forall w e fetch len f s b,
  bc_exec w e false fetch len f (sb s b) = omapb (bc_exec w e false fetch len f s) b.
Proof.
  intros w e fetch len f s b. pose proof (exec_any_budget w e false fetch len f s b) as H.
  destruct (bc_exec w e false fetch len f s); try exact H. destruct H as [H _]. discriminate.
Qed.

(** As [LimitedProofs.LPeq], but [bc_exec] can end in [Errored] (a fetch outside the code) in
    either mode: the unlimited run then does the same. *)
Definition LPb (B : Z) (o U : outcome bcst) : Prop :=
  match o with
  | Done s' => U = Done (sb s' B)
  | Stopped s' => U = Stopped (sb s' B)
  | Errored q s' => U = Errored q (sb s' B)
  | Interrupted s' => bc_budget s' = 0 /\ extends (trace (bc_io s')) (trace (bc_io (outcome_state U)))
  | OutOfFuel _ => True
  end.

Lemma bc_limited_prefix : forall w e fetch len f s B,
  LPb B (bc_exec w e true fetch len f s) (bc_exec w e false fetch len f (sb s B)).
Proof.
  intros w e fetch len f s B. pose proof (exec_any_budget w e true fetch len f s B) as H.
  destruct (bc_exec w e true fetch len f s); cbn [LPb]; solve [exact H|exact I|apply H].
Qed.
