(** * FormsProofs.v — property C13: every shape parameter reordering can leave is accepted by the
    JIT's selector ([jit_covers_all]) and, also after zeroing-move fusion, by the threaded-code
    emitter ([int_covers_all]). *)
From Coq Require Import ZArith List Bool.
From HPBF Require Import Cell BC Forms.
Open Scope Z_scope.

(** [reorder] when no constant is folded *)
Lemma reorder_comm : forall w d a b, is_imm a && is_imm b = false ->
  reorder w (Add d a b) = (let '(a', b') := commute d a b in Add d a' b') /\
  reorder w (Mul d a b) = (let '(a', b') := commute d a b in Mul d a' b').
Proof. intros w d a b H. destruct a, b; try discriminate H; split; reflexivity. Qed.

Lemma reorder_sub_imm : forall w d a y, is_imm a = false ->
  reorder w (Sub d a (Imm y)) = let '(a', b') := commute d a (Imm (wneg w y)) in Add d a' b'.
Proof. intros w d a y H. destruct a; try discriminate H; reflexivity. Qed.

(** The commutative normal form of plain operands that are not both immediates: an immediate
    comes last, and a temporary is followed by a cell only if it is the destination.  These are
    shapes the JIT's selector has an arm for (the other selector takes any source). *)
Lemma commute_covered : forall d a b a' b',
  dst_writable d = true -> src_plain a = true -> src_plain b = true -> is_imm a && is_imm b = false ->
  commute d a b = (a', b') ->
  is_imm a' = false /\ jit_covers (Add d a' b') = true /\ jit_covers (Mul d a' b') = true.
Proof.
  intros d a b a' b' Hd Ha Hb I. unfold commute.
  (* exhaustive: the two kinds of destination, the three kinds of each source less the pair of
     immediates, then every comparison [commute] makes *)
  destruct d; try discriminate Hd.
  all: destruct a; try discriminate Ha.
  all: destruct b; try discriminate Hb; try discriminate I; cbn.
  all: repeat match goal with |- context [if ?c then _ else _] => destruct c eqn:?; cbn end.
  (* what does not compute is the test [t0 =? t1] that [jit_covers] makes of a temporary before a
     cell: it is [commute]'s test [loc_eq d b2] *)
  all: intros [= <- <-]; repeat split; try reflexivity; assumption.
Qed.

Lemma pre_shape_arith : forall d a b, dst_writable d && src_plain a && src_plain b = true ->
  dst_writable d = true /\ src_plain a = true /\ src_plain b = true.
Proof. intros d a b H. apply andb_prop in H as [H Hb]. apply andb_prop in H as [Hd Ha]. auto. Qed.

Theorem jit_covers_all : forall w i, pre_shape i = true -> jit_covers (reorder w i) = true.
Proof.
  intros w i H.
  destruct i as [|c s|s|d|s|c o|c o|d a b|d a b|d a b|d a]; try discriminate H; try reflexivity.
  1-3: apply pre_shape_arith in H as (Hd & Ha & Hb).
  4: { (* Copy *) destruct d; try discriminate H; destruct a; try discriminate H; reflexivity. }
  2: { (* a subtraction stays one unless its second operand is an immediate *)
    destruct b as [k|k|t|y]; try discriminate Hb.
    1-2: destruct d; try discriminate Hd; destruct a; try discriminate Ha; reflexivity.
    destruct (is_imm a) eqn:I.
    - destruct a; try discriminate I. destruct d; try discriminate Hd; reflexivity.
    - rewrite (reorder_sub_imm w d a y I). destruct (commute d a _) as [a' b'] eqn:E.
      apply (commute_covered d a (Imm (wneg w y)) a' b' Hd Ha eq_refl (andb_false_intro1 _ _ I) E). }
  (* [Add] and [Mul]: two immediates fold into a [Copy], other operands are put in normal form *)
  all: destruct (is_imm a && is_imm b) eqn:I.
  1, 3: destruct a, b; try discriminate I; destruct d; try discriminate Hd; reflexivity.
  all: rewrite ?(proj1 (reorder_comm w d a b I)), ?(proj2 (reorder_comm w d a b I)).
  all: destruct (commute d a b) as [a' b'] eqn:E; apply (commute_covered d a b a' b' Hd Ha Hb I E).
Qed.

(** the threaded-code emitter only looks at the destination, which [reorder] keeps *)
Lemma reorder_dst : forall w i, int_covers (reorder w i) = int_covers i.
Proof.
  intros w i. destruct i as [|c s|s|d|s|c o|c o|d a b|d a b|d a b|d a]; try reflexivity.
  (* [Add], [Sub], [Mul]: whatever becomes of the operands, the destination is [d] *)
  all: destruct a, b; cbn -[commute]; try destruct (commute d _ _); reflexivity.
Qed.

Lemma pre_shape_int : forall i, pre_shape i = true -> int_covers i = true.
Proof.
  intros i H. destruct i; try discriminate H; try reflexivity; cbn in *.
  1-3: apply pre_shape_arith in H; apply H.
  apply andb_prop in H. apply H.
Qed.

(** fusion only changes sources from [Mem] to [MemZero]: the emitter accepts the result *)
Theorem int_covers_all : forall w i j, pre_shape i = true -> unzero_instr j = reorder w i -> int_covers j = true.
Proof.
  intros w i j H E. rewrite <- (pre_shape_int i H), <- (reorder_dst w i), <- E.
  destruct j; reflexivity.
Qed.

(** normal form: an immediate operand of a commutative operation is last *)
Theorem reorder_imm_last : forall w d a b d' a' b',
  pre_shape (Add d a b) = true -> reorder w (Add d a b) = Add d' a' b' -> is_imm a' = false.
Proof.
  intros w d a b d' a' b' H E. apply pre_shape_arith in H as (Hd & Ha & Hb).
  destruct (is_imm a && is_imm b) eqn:I.
  - destruct a, b; discriminate.
  - rewrite (proj1 (reorder_comm w d a b I)) in E. destruct (commute d a b) as [a1 b1] eqn:C.
    injection E as _ <- _. apply (commute_covered d a b a1 b1 Hd Ha Hb I C).
Qed.
