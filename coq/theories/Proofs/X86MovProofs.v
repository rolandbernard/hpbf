(** * X86MovProofs.v — what the pointer-move template of the baseline JIT does: [mov_ok_sound] (C03; the
    JIT's variant of the probe protocol of C06), [mov_unsafe_ok_sound] for unchecked mode (C10); also the
    budget-check template [limit_ok_sound] (C07) and the stack frame [frame_ok_sound] (C03). *)
From Coq Require Import ZArith List Bool Lia.
From HPBF Require Import BC X86 X86Call X86Mov X86CallProofs.
Import ListNotations.
Open Scope Z_scope.

Local Arguments Z.mul : simpl never.
Local Arguments Z.add : simpl never.
Local Arguments Z.sub : simpl never.
Local Arguments Z.pow : simpl never.
Local Arguments Z.div : simpl never.
Local Arguments Z.modulo : simpl never.

Lemma mins_eqb_eq : forall a b, mins_eqb a b = true -> a = b.
Proof.
  intros a b H. destruct a; destruct b; try discriminate H; try reflexivity;
    try (apply Z.eqb_eq in H; subst; reflexivity);
    apply andb_prop in H; destruct H as [H1 H2]; apply Z.eqb_eq in H1; apply Z.eqb_eq in H2; subst; reflexivity.
Qed.
Lemma code_eqb_eq : forall a b, code_eqb a b = true -> a = b.
Proof.
  induction a as [|x a IH]; intros [|y b] H; cbn in H; try discriminate; [reflexivity|].
  apply andb_prop in H. destruct H as [H1 H2]. apply mins_eqb_eq in H1. subst. f_equal. apply IH. exact H2.
Qed.

Section Run.
Variable havoc : Z -> Z.
Variable ext : Z * Z * Z -> Z * Z * Z.

Notation run := (mrun havoc ext).
Notation step := (mstep havoc ext).

Definition is_jb (i : mins) : bool := match i with MJb => true | _ => false end.

Lemma mstep_nojump : forall st i, is_jb i = false -> snd (step st i) = false.
Proof.
  intros st i H. destruct i; try discriminate; cbn; try reflexivity.
  - destruct (mk st); reflexivity.
  - destruct (ext (mB st, mS st, mO st)) as [[b s] o]. reflexivity.
Qed.

Lemma mrun_cons : forall i rest st,
  run (i :: rest) st = if snd (step st i) then (fst (step st i), true) else run rest (fst (step st i)).
Proof. intros. cbn [mrun]. destruct (mstep havoc ext st i) as [st' ex]. reflexivity. Qed.

Lemma mrun_cons_nojump : forall i rest st, is_jb i = false -> run (i :: rest) st = run rest (fst (step st i)).
Proof. intros i rest st H. rewrite mrun_cons, (mstep_nojump st i H). reflexivity. Qed.

Lemma run_pushes : forall rs rest st,
  run (map MPush rs ++ rest) st =
  run rest {| mr := mr st; mB := mB st; mS := mS st; mO := mO st; mk := map (mr st) (rev rs) ++ mk st;
              mcalls := mcalls st; mbelow := mbelow st |}.
Proof.
  induction rs as [|r rs IH]; intros rest st.
  - cbn. destruct st; reflexivity.
  - cbn [map app]. rewrite mrun_cons_nojump by reflexivity. cbn [mstep fst]. rewrite IH. cbn [mr mB mS mO mk mcalls mbelow].
    f_equal. f_equal. cbn [rev]. rewrite map_app, <- app_assoc. reflexivity.
Qed.

(** [v r]: the value that was pushed for [r] *)
Lemma run_pops : forall rs (v : Z -> Z) rest st k0, mk st = map v rs ++ k0 ->
  run (map MPop rs ++ rest) st =
  run rest {| mr := fold_left (fun f r => upd f r (v r)) rs (mr st); mB := mB st; mS := mS st; mO := mO st; mk := k0;
              mcalls := mcalls st; mbelow := mbelow st |}.
Proof.
  induction rs as [|r rs IH]; intros v rest st k0 H.
  - cbn in *. subst k0. destruct st; reflexivity.
  - cbn [map app] in *. rewrite mrun_cons_nojump by reflexivity. cbn [mstep]. rewrite H. cbn [fst].
    rewrite (IH v rest _ k0); reflexivity.
Qed.

Lemma restored_regs : forall rs (v f : Z -> Z) r, (~ List.In r rs -> f r = v r) ->
  fold_left (fun f r => upd f r (v r)) rs f r = v r.
Proof.
  induction rs as [|x rs IH]; intros v f r H; [apply H; intros []|]. cbn [fold_left]. apply IH. intros N.
  unfold upd. destruct (r =? x) eqn:E; [apply Z.eqb_eq in E; subst; reflexivity|].
  apply H. intros [->|I]; [rewrite Z.eqb_refl in E; discriminate|contradiction].
Qed.

(** the slow path: store the offset, save, call [extend(cxt, 0, 1)] on an aligned stack, restore,
    reload the tape pointer *)
Definition slow_code (rs : list Z) (odd : bool) (fn sz c3 : Z) : list mins :=
  MStoreOff :: map MPush rs ++ (if odd then [MSubRsp] else []) ++
  [MMovRR 7 3; MMovI 6 0; MMovI 2 1; MMovI 0 fn; MCall 0] ++
  (if odd then [MAddRsp] else []) ++ map MPop (rev rs) ++
  [MLoadRbpBase; MLoadRaxOff; MLeaRbpIdx sz c3].

Definition after_call (st : mst) (fn : Z) : Z -> Z :=
  fun r => if caller_saved r then havoc r else upd (upd (upd (upd (mr st) 7 (mr st 3)) 6 0) 2 1) 0 fn r.

(** the call on an aligned stack, whatever is pushed: the alignment word goes as it came *)
Lemma call_block : forall (odd : bool) fn rest st b' s' o', ext (mB st, mS st, mO st) = (b', s', o') ->
  run ((if odd then [MSubRsp] else []) ++ [MMovRR 7 3; MMovI 6 0; MMovI 2 1; MMovI 0 fn; MCall 0] ++
       (if odd then [MAddRsp] else []) ++ rest) st =
  run rest {| mr := after_call st fn; mB := b'; mS := s'; mO := o'; mk := mk st;
              mcalls := mcalls st ++ [(mr st 3, 0, 1)]; mbelow := mbelow st |}.
Proof.
  intros odd fn rest st b' s' o' EX.
  destruct odd; cbn [app mrun mstep mset fst snd tl mr mB mS mO mk mcalls mbelow]; rewrite EX; reflexivity.
Qed.

Lemma slow_path : forall rs odd fn sz c3 st b' s' o', ext (mB st, mS st, mr st 0) = (b', s', o') ->
  run (slow_code rs odd fn sz c3) st =
  ({| mr := upd (upd (upd (fold_left (fun f r => upd f r (mr st r)) (rev rs) (after_call st fn)) 5 b') 0 o')
                5 (b' + o' * sz + c3);
      mB := b'; mS := s'; mO := o'; mk := mk st; mcalls := mcalls st ++ [(mr st 3, 0, 1)]; mbelow := mbelow st |}, false).
Proof.
  intros rs odd fn sz c3 st b' s' o' EX. unfold slow_code.
  rewrite mrun_cons_nojump by reflexivity. cbn [mstep fst]. rewrite run_pushes.
  rewrite (call_block odd fn _ _ b' s' o') by exact EX.
  rewrite (run_pops (rev rs) (mr st) _ _ (mk st)) by reflexivity.
  reflexivity.
Qed.

Lemma slow_path_regs : forall rs fn st b' o' v5 r, r <> 0 -> r <> 5 ->
  List.In r rs \/ caller_saved r = false ->
  upd (upd (upd (fold_left (fun f r => upd f r (mr st r)) (rev rs) (after_call st fn)) 5 b') 0 o') 5 v5 r = mr st r.
Proof.
  intros rs fn st b' o' v5 r N0 N5 H. rewrite !upd_other by assumption. apply restored_regs. intros N.
  destruct H as [H|H]; [contradict N; apply in_rev in H; exact H|]. unfold after_call. rewrite H.
  rewrite !upd_other by (intros ->; discriminate). reflexivity.
Qed.

Lemma must_keep_saved : forall live r, must_keep live r = true -> r <> 5 ->
  r <> 0 /\ (List.In r (saved_regs live) \/ caller_saved r = false).
Proof.
  intros live r H N5. destruct (must_keep_cases live r H) as [P|(t & HT & T & B)].
  - apply pinned_cases in P. split; [lia|right]. destruct P as [->|[->| ->]]; [reflexivity|reflexivity|contradiction].
  - split; [apply tmp_reg_range in T; cbn [List.In] in T; lia|].
    destruct (caller_saved r) eqn:CS; [left|right; reflexivity].
    (* a caller-saved home belongs to one of the temporaries 4..10 *)
    apply in_flat_map. exists t. rewrite B, T. split; [|left; reflexivity]. cbn [List.In] in HT.
    destruct HT as [<-|[<-|[<-|[<-|HT]]]]; try (injection T as <-; discriminate CS). exact HT.
Qed.

Definition steps (pre : list mins) (st : mst) : mst := fold_left (fun s i => fst (step s i)) pre st.

Lemma run_prefix_jb : forall pre rest st, forallb (fun i => negb (is_jb i)) pre = true ->
  run (pre ++ MJb :: rest) st = if mbelow (steps pre st) then (steps pre st, true) else run rest (steps pre st).
Proof.
  induction pre as [|i pre IH]; intros rest st H.
  - cbn [app steps fold_left]. rewrite mrun_cons. reflexivity.
  - cbn [forallb] in H. apply andb_prop in H. destruct H as [H1 H2]. apply negb_true_iff in H1.
    cbn [app]. rewrite mrun_cons_nojump by exact H1. rewrite (IH rest _ H2). reflexivity.
Qed.

(** the probe: move, compute the probed index, compare it (unsigned) with the size *)
Definition probe_code (sz sh d probe : Z) : list mins :=
  [MAddRbp (sz * d); MLeaRaxRbp (sz * probe); MSubRaxBase] ++ (if sz =? 1 then [] else [MSarRax sh]) ++ [MCmpRaxSize].

Lemma probe_prefix : forall sz sh d probe st,
  let idx := (mr st 5 + sz * d + sz * probe - mB st) / (if sz =? 1 then 1 else 2 ^ sh) in
  let stA := steps (probe_code sz sh d probe) st in
  mr stA 0 = idx /\ mr stA 5 = mr st 5 + sz * d /\ (forall r, r <> 0 -> r <> 5 -> mr stA r = mr st r) /\
  mB stA = mB st /\ mS stA = mS st /\ mO stA = mO st /\ mk stA = mk st /\ mcalls stA = mcalls st /\
  mbelow stA = (idx mod 2 ^ 64 <? mS st mod 2 ^ 64).
Proof.
  intros sz sh d probe st idx stA. subst stA idx. unfold probe_code, steps.
  destruct (sz =? 1); cbv iota; rewrite ?Z.div_1_r.
  (* registers 0 and 5 are compared concretely, so all but the third conjunct hold by computation:
     [split] closes them *)
  all: repeat split; intros r N0 N5.
  all: cbn [app fold_left mstep fst mset mr]; rewrite !upd_other by assumption; reflexivity.
Qed.

End Run.

Lemma mov_template_eq : forall sz sh d probe live fn,
  mov_template sz sh d probe live fn =
  probe_code sz sh d probe ++
  MJb :: slow_code (saved_regs live) (Nat.odd (length (saved_regs live))) fn sz (- (sz * probe)).
Proof. intros. unfold mov_template, probe_code, slow_code. rewrite <- !app_assoc. reflexivity. Qed.

Lemma width_cases : forall w, ((w =? 8) || (w =? 16) || (w =? 32) || (w =? 64)) = true ->
  let sz := w / 8 in
  let sh := if w =? 8 then 0 else if w =? 16 then 1 else if w =? 32 then 2 else 3 in
  (if sz =? 1 then 1 else 2 ^ sh) = sz /\ 0 < sz.
Proof.
  intros w H. (* [size_ok w] is this disjunction *)
  destruct (size_ok_true w H) as [->|[->|[->| ->]]]; split; reflexivity.
Qed.

Lemma unsigned_below : forall idx S, - 2 ^ 63 <= idx < 2 ^ 63 -> 0 <= S < 2 ^ 63 ->
  (idx mod 2 ^ 64 <? S mod 2 ^ 64) = ((0 <=? idx) && (idx <? S)).
Proof.
  intros idx S Hi HS. change (2 ^ 64) with (2 * 2 ^ 63). set (T := 2 ^ 63) in *.
  rewrite (Z.mod_small S) by lia. destruct (Z.leb_spec 0 idx) as [P|N]; cbn [andb].
  - rewrite (Z.mod_small idx) by lia. reflexivity.
  - (* a negative index wraps to at least 2^63 *)
    rewrite <- (Z_mod_plus_full idx 1), Z.mod_small by lia. apply Z.ltb_ge. lia.
Qed.

(** C03_mov_template, where the statement is read out *)
Theorem mov_ok_sound : forall w d mn mx live code, mov_ok w (MovP d) mn mx live code = true ->
  forall havoc ext st q, mk st = [] -> mcalls st = [] -> mr st 5 = mB st + (w / 8) * q ->
  let probe := if d <? 0 then mn else mx in
  let idx := q + d + probe in
  let below := (idx mod 2 ^ 64 <? mS st mod 2 ^ 64) in
  exists stf, mrun havoc ext code st = (stf, below) /\
    if below
    then mr stf 5 = mB st + (w / 8) * (q + d) /\ mB stf = mB st /\ mS stf = mS st /\ mO stf = mO st /\
         mk stf = [] /\ mcalls stf = [] /\ (forall r, r <> 0 -> r <> 5 -> mr stf r = mr st r)
    else (let '(b', s', o') := ext (mB st, mS st, idx) in
          mB stf = b' /\ mS stf = s' /\ mO stf = o' /\ mr stf 5 = b' + (w / 8) * (o' - probe)) /\
         mcalls stf = [(mr st 3, 0, 1)] /\ mk stf = [] /\
         (forall r, must_keep live r = true -> r <> 5 -> mr stf r = mr st r).
Proof.
  intros w d mn mx live code H havoc ext st q K C AL probe idx below.
  unfold mov_ok in H. apply andb_prop in H. destruct H as [HW HC]. apply code_eqb_eq in HC.
  destruct (width_cases w HW) as [SZ SP]. fold probe in HC. rewrite HC.
  set (sz := w / 8) in *. set (sh := if w =? 8 then 0 else if w =? 16 then 1 else if w =? 32 then 2 else 3) in *.
  pose proof (probe_prefix havoc ext sz sh d probe st) as PP. cbv zeta in PP.
  (* the probed address is a whole number of cells from the buffer's start *)
  replace (mr st 5 + sz * d + sz * probe - mB st) with (idx * sz) in PP by (rewrite AL; subst idx; lia).
  rewrite SZ, Z.div_mul in PP by lia. fold below in PP.
  set (stA := steps havoc ext (probe_code sz sh d probe) st) in *.
  destruct PP as (A0 & A5 & AR & AB & AS & AO & AK & AC & ABL).
  rewrite mov_template_eq. rewrite run_prefix_jb by (unfold probe_code; destruct (sz =? 1); reflexivity).
  fold stA. rewrite ABL. destruct below.
  - exists stA. split; [reflexivity|]. rewrite A5, AB, AS, AO, AK, AC, AL. repeat split; try assumption. lia.
  - destruct (ext (mB st, mS st, idx)) as [[b' s'] o'] eqn:EX.
    rewrite (slow_path havoc ext _ _ _ sz _ stA b' s' o') by congruence.
    eexists. split; [reflexivity|]. cbn [mr mB mS mO mk mcalls]. rewrite upd_same, (AR 3), AK, K, AC, C by discriminate.
    repeat split; [lia|]. intros r MK N5. destruct (must_keep_saved live r MK N5) as [N0 HC'].
    rewrite slow_path_regs by assumption. apply AR; assumption.
Qed.

Lemma lins_eqb_eq : forall a b, lins_eqb a b = true -> a = b.
Proof. intros [] [] H; try discriminate H; try reflexivity. apply Z.eqb_eq in H. subst. reflexivity. Qed.

(** C07_jit_limit_template: the budget check of limited mode takes the same decision as [BC.bc_limit 1] *)
Theorem limit_ok_sound : forall code st, limit_ok code = true -> 0 <= l_budget st < 2 ^ 64 ->
  snd (lrun code st) = (l_budget st <=? 1) /\
  (snd (lrun code st) = false -> l_budget (fst (lrun code st)) = l_budget st - 1).
Proof.
  intros code st H B. destruct code as [|a [|b [|c [|d [|e [|x l]]]]]]; try discriminate.
  cbn [limit_ok] in H. rewrite !andb_true_iff in H. destruct H as [[[[Ha Hb] Hc] Hd] He].
  apply lins_eqb_eq in Ha, Hb, Hc, Hd, He. subst.
  cbn [lrun lstep l_rax l_budget l_below].
  rewrite (Z.mod_small (l_budget st)) by exact B. change (2 mod 2 ^ 64) with 2.
  destruct (Z.ltb_spec (l_budget st) 2) as [L|L]; cbn [snd fst l_budget].
  - split; [symmetry; apply Z.leb_le; lia|discriminate].
  - split; [symmetry; apply Z.leb_gt; lia|reflexivity].
Qed.

(** C03_frame: every stack temporary has its slot inside the reserved area and the stack pointer
    is 16-byte aligned in the body (which is what the call templates' "even number of words pushed"
    is relative to) *)
Theorem frame_ok_sound : forall temps pushes sub_bytes, frame_ok temps pushes sub_bytes = true ->
  forall rsp0, (rsp0 + 8) mod 16 = 0 ->
  (rsp0 - 8 * pushes - sub_bytes) mod 16 = 0 /\
  (forall t, 0 <= t < temps -> 0 <= 8 * t /\ 8 * t + 8 <= sub_bytes).
Proof.
  intros temps pushes sub_bytes H rsp0 A. unfold frame_ok in H.
  apply andb_prop in H. destruct H as [H H4]. apply andb_prop in H. destruct H as [H H3].
  apply andb_prop in H. destruct H as [_ H2]. apply Z.leb_le in H2, H3. apply Z.eqb_eq in H4.
  split; [|lia].
  replace (rsp0 - 8 * pushes - sub_bytes) with ((rsp0 + 8) - (8 + 8 * pushes + sub_bytes)) by lia.
  rewrite Zminus_mod, A, H4. reflexivity.
Qed.

(** C10_jit_unchecked_move: without bounds checks the move is the bare addition to the tape pointer *)
Theorem mov_unsafe_ok_sound : forall w d code havoc ext st, mov_unsafe_ok w (MovP d) code = true ->
  mrun havoc ext code st = (mset st 5 (mr st 5 + w / 8 * d), false).
Proof.
  intros w d code havoc ext st H. unfold mov_unsafe_ok in H. apply andb_prop in H. destruct H as [_ H].
  apply code_eqb_eq in H. subst code. reflexivity.
Qed.
