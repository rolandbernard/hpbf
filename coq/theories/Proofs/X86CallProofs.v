(** * X86CallProofs.v — the provenance evaluator [yrun] agrees with the machine of [X86Call.v], hence a
    runtime-call template that [call_ok] accepts makes its one call and takes the exit iff the callee
    reports failure (C03; C08 refers to the exit); [br_ok] for the conditional branches. *)
From Coq Require Import ZArith List Bool Lia.
From HPBF Require Import BC X86 X86Call.
Import ListNotations.
Open Scope Z_scope.

Lemma upd_same : forall (f : Z -> Z) k v, upd f k v k = v.
Proof. intros. unfold upd. rewrite Z.eqb_refl. reflexivity. Qed.

Lemma upd_other : forall (f : Z -> Z) k v r, r <> k -> upd f k v r = f r.
Proof. intros f k v r H. unfold upd. rewrite (proj2 (Z.eqb_neq r k) H). reflexivity. Qed.

Lemma size_ok_true : forall sz, size_ok sz = true -> sz = 8 \/ sz = 16 \/ sz = 32 \/ sz = 64.
Proof. intros sz H. repeat (apply orb_prop in H; destruct H as [H|H]); apply Z.eqb_eq in H; auto. Qed.

Lemma kval_eqb_eq : forall a b, kval_eqb a b = true -> a = b.
Proof. intros [x|x|x|x|] [y|y|y|y|] H; cbn in H; try discriminate; apply Z.eqb_eq in H; subst; reflexivity. Qed.

Lemma tmp_reg_range : forall t r, tmp_reg t = Some r -> List.In r [12; 13; 14; 15; 6; 7; 2; 8; 9; 10; 11].
Proof. intros t r H. exact (nth_error_In _ _ H). Qed.

Lemma pinned_cases : forall r, pinned r = true -> r = 3 \/ r = 4 \/ r = 5.
Proof. intros r H. repeat (apply orb_prop in H; destruct H as [H|H]); apply Z.eqb_eq in H; auto. Qed.

Lemma must_keep_cases : forall live r, must_keep live r = true ->
  pinned r = true \/
  exists t, List.In t [0; 1; 2; 3; 4; 5; 6; 7; 8; 9; 10] /\ tmp_reg t = Some r /\ Z.testbit live t = true.
Proof.
  intros live r H. apply orb_prop in H. destruct H as [H|H]; [left; exact H|right].
  apply existsb_exists in H. destruct H as (t & HT & H). exists t.
  destruct (tmp_reg t) as [r'|]; [|discriminate]. apply andb_prop in H. destruct H as [E B].
  apply Z.eqb_eq in E. subst r'. auto.
Qed.

Lemma br_ok_cases : forall i code, br_ok i code = true ->
  exists c off j, code = [KCmpCell c; j] /\ (i = BrZ c off /\ j = KJe \/ i = BrNZ c off /\ j = KJne).
Proof.
  intros i code H. destruct i as [| | | | |c off|c off| | | |]; try discriminate; exists c, off.
  (* either way [br_ok] accepts only [KCmpCell k; j] with [j] a jump *)
  all: destruct code as [|[| | | | | | | | | |k| | |] code]; try discriminate.
  all: destruct code as [|j code]; try discriminate; destruct j; try discriminate.
  all: destruct code; try discriminate; apply Z.eqb_eq in H; subst k; eauto.
Qed.

Section Sound.
Variable w : Z.
Variable oracle : Z -> Z.
Variable st0 : kst.

Definition vden (v : kval) : option Z :=
  match v with
  | VInit r => Some (kr st0 r)
  | VCell k => Some (kc st0 k)
  | VRet r => Some (oracle r)
  | VImm c => Some c
  | VJunk => None
  end.

Fixpoint kfind (k : Z) (l : list (Z * kval)) : option kval :=
  match l with [] => None | (k', v) :: l' => if k' =? k then Some v else kfind k l' end.

(** [VJunk] denotes nothing, so it "knows" any value *)
Definition known (v : kval) (x : Z) : Prop := forall x', vden v = Some x' -> x = x'.

(** [a_cells]: a store keeps the low [w] bits, so that is all a stored cell is known by.
    [a_nocall]: up to the call neither side has recorded one, so the call step leaves exactly its own
    entry in [kcalls], matching the [ycalls] the evaluator sets. *)
Record Agr (st : kst) (y : ksym) : Prop := {
  a_regs : forall r, known (yget y r) (kr st r);
  a_stack : Forall2 known (yk y) (kk st);
  a_cells : forall k, match kfind k (ystore y) with
                      | None => kc st k = kc st0 k
                      | Some v => forall x, vden v = Some x -> kc st k = x mod 2 ^ w
                      end;
  a_calls : Forall2 (fun vv xx => known (fst vv) (fst xx) /\ known (snd vv) (snd xx)) (ycalls y) (kcalls st);
  a_test : match ytest y with
           | TNone => True
           | TTest8 v => forall x, vden v = Some x -> kzf st = (x mod 256 =? 0)
           | TCmp64 v c => forall x, vden v = Some x -> kzf st = (x =? c)
           end;
  a_nocall : ycalled y = false -> kcalls st = [] /\ ycalls y = []
}.

Hypothesis H0k : kk st0 = [].
Hypothesis H0c : kcalls st0 = [].

Lemma agr0 : Agr st0 ksym0.
Proof.
  constructor; cbn.
  - intros r x' H. injection H as <-. reflexivity.
  - rewrite H0k. constructor.
  - intros k. reflexivity.
  - rewrite H0c. constructor.
  - exact I.
  - intros _. split; [exact H0c|reflexivity].
Qed.

Lemma yget_yset : forall y r v r', yget (yset y r v) r' = if r =? r' then v else yget y r'.
Proof. reflexivity. Qed.

Lemma known_set : forall st y d v x, (forall r, known (yget y r) (kr st r)) -> known v x ->
  forall r, known (klook r ((d, v) :: yr y) (VInit r)) (upd (kr st) d x r).
Proof.
  intros st y d v x AR KV r. cbn [klook]. unfold upd. rewrite (Z.eqb_sym r d).
  destruct (d =? r); [exact KV|apply AR].
Qed.

Lemma known_havoc : forall st y (l : list Z), (forall r, known (yget y r) (kr st r)) ->
  forall r, known (klook r (map (fun r0 => (r0, VRet r0)) l ++ yr y) (VInit r))
                  (if existsb (Z.eqb r) l then oracle r else kr st r).
Proof.
  intros st y l AR r. induction l as [|x l IH]; [apply AR|]. cbn [map app klook existsb].
  rewrite (Z.eqb_sym r x). destruct (x =? r) eqn:E; [|exact IH].
  apply Z.eqb_eq in E. subst x. intros x' Hx. injection Hx as <-. reflexivity.
Qed.

Lemma existsb_kfind : forall k l, existsb (fun kv : Z * kval => fst kv =? k) l = false -> kfind k l = None.
Proof.
  intros k l. induction l as [|[k' v] l IH]; intros H; [reflexivity|]. cbn in *.
  destruct (k' =? k); [discriminate|]. apply IH. exact H.
Qed.

(** a template is straight-line code around one conditional jump *)
Definition is_jump (i : kins) : bool := match i with KJe | KJne => true | _ => false end.
Definition is_je (i : kins) : bool := match i with KJe => true | _ => false end.

(** every instruction the evaluator accepts preserves the agreement, whether or not the jump is taken.
    The jump is accepted once, after the call and on an empty stack; any other instruction leaves the
    recorded exit alone, makes no second call and stores nothing before the jump *)
Lemma ystep_sound : forall st y i y', Agr st y -> ystep y i = Some y' ->
  Agr (fst (kstep w oracle st i)) y' /\
  if is_jump i
  then yexit y = None /\ yk y = [] /\ ycalled y' = true /\ ycalls y' = ycalls y /\ yexit y' = Some (is_je i, ytest y)
  else yexit y' = yexit y /\ (ycalled y = true -> ycalled y' = true /\ ycalls y' = ycalls y) /\
       (yexit y = None -> ystore y' = ystore y).
Proof.
  intros st y i y' A H. destruct A as [AR AK AC AL AT AN].
  destruct i as [r|r| | |d s|d k|d c|t|r|r c|kc0| | |k r]; cbn [ystep kstep fst is_jump is_je] in *; try discriminate.
  - (* KPush *) injection H as <-. split; [|auto]. constructor; try assumption. constructor; [apply AR|exact AK].
  - (* KPop *) destruct (pinned r); [discriminate|]. destruct AK as [|v x vs xs KV KR]; [discriminate|]. injection H as <-.
    split; [|auto]. constructor; try assumption. apply known_set; assumption.
  - (* KSubRsp *) injection H as <-. split; [|auto]. constructor; try assumption.
    constructor; [intros x' H; discriminate|exact AK].
  - (* KAddRsp *) destruct AK as [|v x vs xs KV KR]; [discriminate|]. injection H as <-. split; [|auto]. constructor; assumption.
  - (* KMovRR *) destruct (pinned d); [discriminate|]. injection H as <-. split; [|auto]. constructor; try assumption.
    apply known_set; [exact AR|apply AR].
  - (* KLoad *) destruct (pinned d); [discriminate|]. destruct (existsb _ (ystore y)) eqn:EX; [discriminate|]. injection H as <-.
    split; [|auto]. constructor; try assumption. apply known_set; [exact AR|].
    intros x' Hx. injection Hx as <-. pose proof (AC k) as CK. rewrite (existsb_kfind _ _ EX) in CK. exact CK.
  - (* KMovI *) destruct (pinned d); [discriminate|]. injection H as <-. split; [|auto]. constructor; try assumption.
    apply known_set; [exact AR|]. intros x' Hx. injection Hx as <-. reflexivity.
  - (* KCall *) destruct (ycalled y || negb (Nat.even (length (yk y)))) eqn:E; [discriminate|]. injection H as <-.
    apply orb_false_iff in E. destruct E as [E1 _].
    split; [|split; [reflexivity|split; [congruence|reflexivity]]].
    constructor; cbn [kr kc kk kcalls kzf yr yk ystore ycalls ytest ycalled yexit]; try assumption.
    + exact (known_havoc st y [0; 1; 2; 6; 7; 8; 9; 10; 11] AR).
    + destruct (AN E1) as [KC _]. rewrite KC. constructor; [split; apply AR|constructor].
    + discriminate.
  - (* KTest8 *) injection H as <-. split; [|auto]. constructor; try assumption.
    intros x Hx. rewrite (AR r x Hx). reflexivity.
  - (* KCmp64 *) injection H as <-. split; [|auto]. constructor; try assumption.
    intros x Hx. rewrite (AR r x Hx). reflexivity.
  - (* KJe *) destruct (yexit y); [discriminate|]. destruct (yk y); [|discriminate]. destruct (ycalled y); [|discriminate].
    injection H as <-. split; [constructor; assumption|repeat split].
  - (* KJne *) destruct (yexit y); [discriminate|]. destruct (yk y); [|discriminate]. destruct (ycalled y); [|discriminate].
    injection H as <-. split; [constructor; assumption|repeat split].
  - (* KStore *) destruct (yexit y); [|discriminate]. injection H as <-.
    split; [|split; [reflexivity|split; [auto|discriminate]]]. constructor; try assumption.
    intros k'. cbn [kfind ystore kc]. unfold upd. rewrite (Z.eqb_sym k' k). destruct (k =? k').
    + intros x Hx. rewrite (AR r x Hx). reflexivity.
    + apply AC.
Qed.

Lemma kstep_nojump : forall st i, is_jump i = false -> snd (kstep w oracle st i) = false.
Proof. intros st i H. destruct i; try discriminate; try reflexivity. cbn. destruct (kk st); reflexivity. Qed.

Lemma kstep_jump : forall st j, is_jump j = true ->
  kstep w oracle st j = (st, if is_je j then kzf st else negb (kzf st)).
Proof. intros st j H. destruct j; try discriminate; reflexivity. Qed.

Lemma krun_cons : forall i rest st,
  krun w oracle (i :: rest) st =
  if snd (kstep w oracle st i) then (fst (kstep w oracle st i), true) else krun w oracle rest (fst (kstep w oracle st i)).
Proof. intros. cbn [krun]. destruct (kstep w oracle st i) as [st' ex]. reflexivity. Qed.

(** after the jump the evaluator accepts no second jump, so when the exit is not taken the rest runs
    to its end; used by [run_to_exit] for the code behind the jump *)
Lemma run_past_exit : forall code st y y' e, yexit y = Some e -> ycalled y = true -> Agr st y ->
  yrun code y = Some y' ->
  snd (krun w oracle code st) = false /\ Agr (fst (krun w oracle code st)) y' /\
  yexit y' = Some e /\ ycalls y' = ycalls y.
Proof.
  induction code as [|i code IH]; intros st y y' e E C A H; cbn [yrun] in H.
  - injection H as <-. auto.
  - destruct (ystep y i) as [y1|] eqn:YS; [|discriminate]. destruct (ystep_sound st y i y1 A YS) as [A1 F].
    destruct (is_jump i) eqn:J; [destruct F as [N _]; congruence|].
    destruct F as (E1 & C1 & _). destruct (C1 C) as [C2 L2].
    rewrite krun_cons, (kstep_nojump st i J), <- L2.
    apply (IH _ y1); [congruence|exact C2|exact A1|exact H].
Qed.

(** the [a_test] field of [Agr] with the flag as a parameter: what the zero flag was computed from *)
Definition flag_of (t : ktest) (zf : bool) : Prop :=
  match t with
  | TNone => True
  | TTest8 v => forall x, vden v = Some x -> zf = (x mod 256 =? 0)
  | TCmp64 v c => forall x, vden v = Some x -> zf = (x =? c)
  end.

Lemma jump_flag : forall je zf b : bool, (if je then zf else negb zf) = b -> (if je then b else negb b) = zf.
Proof. intros je zf b <-. destruct je; [reflexivity|apply negb_involutive]. Qed.

(** [yx]: the final symbolic state, or, when the exit is taken, the symbolic state at the jump *)
Lemma run_to_exit : forall code st y y' isje t, yexit y = None -> ystore y = [] -> Agr st y ->
  yrun code y = Some y' -> yexit y' = Some (isje, t) ->
  let ex := snd (krun w oracle code st) in
  flag_of t (if isje then ex else negb ex) /\
  exists yx, Agr (fst (krun w oracle code st)) yx /\ ycalls yx = ycalls y' /\
             if ex then yk yx = [] /\ ystore yx = [] else yx = y'.
Proof.
  induction code as [|i code IH]; intros st y y' isje t E S A H E'; cbn [yrun] in H.
  - injection H as <-. congruence.
  - destruct (ystep y i) as [y1|] eqn:YS; [|discriminate]. rewrite krun_cons.
    destruct (ystep_sound st y i y1 A YS) as [A1 F]. destruct (is_jump i) eqn:J.
    + destruct F as (_ & K & C1 & L1 & E1).
      rewrite (kstep_jump st i J) in *. cbn [fst snd] in *.
      destruct (run_past_exit code st y1 y' _ E1 C1 A1 H) as (X & A' & E2 & L2).
      rewrite E' in E2. injection E2 as -> ->.
      destruct (if is_je i then kzf st else negb (kzf st)) eqn:B; cbn [fst snd]; [|rewrite X].
      * split; [rewrite (jump_flag _ _ _ B); exact (a_test st y A)|]. exists y. rewrite L2. auto.
      * split; [rewrite (jump_flag _ _ _ B); exact (a_test st y A)|]. exists y'. auto.
    + destruct F as (E1 & _ & S1). rewrite (kstep_nojump st i J).
      apply (IH _ y1); [congruence|rewrite S1; assumption|exact A1|exact H|exact E'].
Qed.

Lemma must_keep_range : forall live r, must_keep live r = true -> 0 <= r < 16.
Proof.
  intros live r H. destruct (must_keep_cases live r H) as [P|(t & _ & T & _)].
  - apply pinned_cases in P. lia.
  - apply tmp_reg_range in T. cbn [List.In] in T. lia.
Qed.

Lemma restored : forall live y st r, regs_restored live y = true -> Agr st y -> must_keep live r = true -> kr st r = kr st0 r.
Proof.
  intros live y st r H A MK. unfold regs_restored in H. rewrite forallb_forall in H. specialize (H r).
  rewrite MK in H. apply kval_eqb_eq in H; [apply (a_regs st y A r); rewrite H; reflexivity|].
  pose proof (must_keep_range live r MK) as R.
  apply (in_map_iff Z.of_nat (seq 0 16)). exists (Z.to_nat r). split; [lia|apply in_seq; lia].
Qed.

Lemma stack_empty : forall st y, Agr st y -> yk y = [] -> kk st = [].
Proof. intros st y A H. destruct (a_stack st y A); [reflexivity|discriminate]. Qed.

Lemma one_call : forall st y v1 v2, Agr st y -> ycalls y = [(v1, v2)] ->
  exists a1 a2, kcalls st = [(a1, a2)] /\ known v1 a1 /\ known v2 a2.
Proof.
  intros st y v1 v2 A H. destruct (a_calls st y A) as [|vv [a1 a2] vs xs [P1 P2] Q]; [discriminate|].
  injection H as -> ->. inversion Q. exists a1, a2. auto.
Qed.

Theorem br_ok_sound : forall i code st, br_ok i code = true ->
  fst (krun w oracle code st) = {| kr := kr st; kc := kc st; kk := kk st; kcalls := kcalls st;
                                    kzf := match i with BrZ c _ | BrNZ c _ => (kc st c =? 0) | _ => kzf st end |} /\
  snd (krun w oracle code st) =
    match i with BrZ c _ => (kc st c =? 0) | BrNZ c _ => negb (kc st c =? 0) | _ => false end.
Proof.
  intros i code st H. destruct (br_ok_cases i code H) as (c & off & j & -> & [[-> ->]|[-> ->]]);
    cbn [krun kstep fst snd kc kzf]; destruct (kc st c =? 0); split; reflexivity.
Qed.

Theorem call_ok_inp : forall dst live code, call_ok (Inp dst) live code = true ->
  let st' := fst (krun w oracle code st0) in
  let ex := snd (krun w oracle code st0) in
  (exists a2, kcalls st' = [(kr st0 3, a2)]) /\ ex = (oracle 0 =? U64M1) /\ kk st' = [] /\
  (ex = true -> forall k, kc st' k = kc st0 k) /\
  (ex = false -> (forall r, must_keep live r = true -> kr st' r = kr st0 r) /\
                 (forall k, kc st' k = if k =? dst then oracle 0 mod 2 ^ w else kc st0 k)).
Proof.
  intros dst live code H. unfold call_ok in H.
  destruct (yrun code ksym0) as [y|] eqn:YR; [|discriminate].
  apply andb_prop in H as [H HM]. apply andb_prop in H as [H HR]. apply andb_prop in H as [HK _].
  apply andb_prop in HM as [HM HS]. apply andb_prop in HM as [HL HE].
  destruct (yk y) eqn:YK; [|discriminate].
  destruct (ycalls y) as [|[v1 v2] [|c2 cs]] eqn:YC; try discriminate. apply kval_eqb_eq in HL. subst v1.
  destruct (yexit y) as [[[|] [|v|v c]]|] eqn:YE; try discriminate. apply andb_prop in HE as [HE1 HE2].
  apply kval_eqb_eq in HE1. apply Z.eqb_eq in HE2. subst v c.
  destruct (ystore y) as [|[k v] [|s2 ss]] eqn:YS; try discriminate. apply andb_prop in HS as [HS1 HS2].
  apply Z.eqb_eq in HS1. apply kval_eqb_eq in HS2. subst k v.
  destruct (run_to_exit code st0 ksym0 y _ _ eq_refl eq_refl agr0 YR YE) as (D & yx & A & L & X).
  cbv zeta. set (st' := fst (krun w oracle code st0)) in *. set (ex := snd (krun w oracle code st0)) in *.
  rewrite YC in L. destruct (one_call st' yx _ _ A L) as (a1 & a2 & E & P1 & _).
  split; [exists a2; rewrite E, (P1 _ eq_refl); reflexivity|]. split; [exact (D _ eq_refl)|].
  destruct ex.
  - destruct X as [K S]. split; [exact (stack_empty st' yx A K)|]. split; [|discriminate].
    intros _ k. pose proof (a_cells st' yx A k) as CK. rewrite S in CK. exact CK.
  - subst yx. split; [exact (stack_empty st' y A YK)|]. split; [discriminate|]. intros _. split.
    + intros r MK. exact (restored live y st' r HR A MK).
    + intros k. pose proof (a_cells st' y A k) as CK. rewrite YS in CK. cbn [kfind] in CK. rewrite (Z.eqb_sym k dst).
      destruct (dst =? k); [apply CK; reflexivity|exact CK].
Qed.

Theorem call_ok_out : forall src live code, call_ok (Outp src) live code = true ->
  let st' := fst (krun w oracle code st0) in
  let ex := snd (krun w oracle code st0) in
  kcalls st' = [(kr st0 3, kc st0 src)] /\ ex = negb (oracle 0 mod 256 =? 0) /\ kk st' = [] /\
  (forall k, kc st' k = kc st0 k) /\
  (ex = false -> forall r, must_keep live r = true -> kr st' r = kr st0 r).
Proof.
  intros src live code H. unfold call_ok in H.
  destruct (yrun code ksym0) as [y|] eqn:YR; [|discriminate].
  apply andb_prop in H as [H HM]. apply andb_prop in H as [H HR]. apply andb_prop in H as [HK _].
  apply andb_prop in HM as [HM HS]. apply andb_prop in HM as [HL HE].
  destruct (yk y) eqn:YK; [|discriminate].
  destruct (ycalls y) as [|[v1 v2] [|c2 cs]] eqn:YC; try discriminate. apply andb_prop in HL as [HL1 HL2].
  apply kval_eqb_eq in HL1. apply kval_eqb_eq in HL2. subst v1 v2.
  destruct (yexit y) as [[[|] [|v|v c]]|] eqn:YE; try discriminate. apply kval_eqb_eq in HE. subst v.
  destruct (ystore y) as [|s1 ss] eqn:YS; [|discriminate].
  destruct (run_to_exit code st0 ksym0 y _ _ eq_refl eq_refl agr0 YR YE) as (D & yx & A & L & X).
  cbv zeta. set (st' := fst (krun w oracle code st0)) in *. set (ex := snd (krun w oracle code st0)) in *.
  rewrite YC in L. destruct (one_call st' yx _ _ A L) as (a1 & a2 & E & P1 & P2).
  split; [rewrite E, (P1 _ eq_refl), (P2 _ eq_refl); reflexivity|].
  split; [rewrite <- (D _ eq_refl); symmetry; apply negb_involutive|].
  destruct ex.
  - destruct X as [K S]. split; [exact (stack_empty st' yx A K)|]. split; [|discriminate].
    intros k. pose proof (a_cells st' yx A k) as CK. rewrite S in CK. exact CK.
  - subst yx. split; [exact (stack_empty st' y A YK)|]. split.
    + intros k. pose proof (a_cells st' y A k) as CK. rewrite YS in CK. exact CK.
    + intros _ r MK. exact (restored live y st' r HR A MK).
Qed.
End Sound.
