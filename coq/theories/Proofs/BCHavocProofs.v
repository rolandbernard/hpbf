(** * BCHavocProofs.v — on a bytecode program accepted by [bc_wf], clobbering every register
    temporary that is not declared live after every non-branch instruction is unobservable: the
    run of [BCHavoc.bc_exec_h] and the run of [BC.bc_exec] proceed in lockstep with the same tape,
    pointer, program counter and I/O state (property C11, the meaning of the [live] masks). *)
From Coq Require Import ZArith List Bool.
From HPBF Require Import Cell IO BC BCWf BCHavoc BCWfProofs BCProofs MachineProofs.
Import ListNotations.
Open Scope Z_scope.

(** Every operation that does not look at the temporaries commutes with [with_tmps] by computation. *)
Definition with_tmps (s : bcst) (m : tmap) : bcst :=
  {| bc_tape := bc_tape s; bc_ptr := bc_ptr s; bc_tmps := m; bc_pc := bc_pc s; bc_io := bc_io s;
     bc_budget := bc_budget s; bc_lo := bc_lo s; bc_hi := bc_hi s |}.
(** [Ag L s h]: [h] is [s] with possibly different temporaries outside the set [L] *)
Definition Ag (L : Z) (s h : bcst) : Prop :=
  exists m, h = with_tmps s m /\ forall t, Z.testbit L t = true -> tget m t = tget (bc_tmps s) t.

Lemma Ag_with : forall L s m, (forall t, Z.testbit L t = true -> tget m t = tget (bc_tmps s) t) -> Ag L s (with_tmps s m).
Proof. intros L s m E. exists m. split; [reflexivity|exact E]. Qed.

Lemma Ag_sub : forall L L' s h, Ag L s h -> (forall t, Z.testbit L' t = true -> Z.testbit L t = true) -> Ag L' s h.
Proof. intros L L' s h (m & -> & E) S. apply Ag_with. intros t H. apply E, S, H. Qed.

Lemma tmp_bit : forall t n, 0 <= t -> Z.testbit (loc_tmp_use (Tmp t)) n = (n =? t).
Proof. intros t n T. cbn [loc_tmp_use]. apply testbit_bit. exact T. Qed.

(** the havoc run first, as in [C11_nonlive_registers_unobservable]; [Ag] has the plain state first *)
Definition sameobs (o o' : outcome bcst) : Prop :=
  match o, o' with
  | Done h, Done s | Stopped h, Stopped s | OutOfFuel h, OutOfFuel s =>
      bc_tape h = bc_tape s /\ bc_ptr h = bc_ptr s /\ bc_pc h = bc_pc s /\ bc_io h = bc_io s
  | Errored _ _, Errored _ _ => True
  | _, _ => False
  end.

Lemma sameobs_ag : forall L s h, Ag L s h -> bc_tape h = bc_tape s /\ bc_ptr h = bc_ptr s /\ bc_pc h = bc_pc s /\ bc_io h = bc_io s.
Proof. intros L s h (m & -> & _). repeat split. Qed.

Lemma read_ag : forall w L s h l, Ag L s h -> (forall t, l = Tmp t -> Z.testbit L t = true) ->
  exists v s1 h1, bc_read w s l = (v, s1) /\ bc_read w h l = (v, h1) /\ Ag L s1 h1.
Proof.
  intros w L s h l (m & -> & E) U.
  exists (fst (bc_read w s l)), (snd (bc_read w s l)), (with_tmps (snd (bc_read w s l)) m).
  destruct l as [k|k|t|c]; cbn [bc_read fst snd]; (split; [reflexivity|split; [|apply Ag_with; exact E]]);
    try reflexivity.
  change (tget (bc_tmps (with_tmps s m)) t) with (tget m t). rewrite (E t (U t eq_refl)). reflexivity.
Qed.

Lemma write_ag : forall L s h l v, Ag L s h -> Ag (Z.lor L (loc_tmp_use l)) (bc_write s l v) (bc_write h l v).
Proof.
  intros L s h l v (m & -> & E). destruct l as [k|k|t|c]; cbn [bc_write loc_tmp_use]; rewrite ?Z.lor_0_r.
  - exact (Ag_with L (bc_set_mem s k v) m E).
  - exact (Ag_with L (bc_set_mem s k v) m E).
  - apply (Ag_with _ (bc_set_tmp s t v) (tset m t v)). intros t' H. cbn [bc_set_tmp bc_tmps]. rewrite !tget_tset.
    destruct (t =? t') eqn:Q; [reflexivity|]. apply E.
    rewrite Z.lor_spec in H. apply orb_prop in H as [H|H]; [exact H|].
    rewrite (bit_only _ _ H), Z.eqb_refl in Q. discriminate.
  - exact (Ag_with L s m E).
Qed.

Lemma binop_ag : forall w op L s h d a b, Ag L s h -> (forall t, List.In (Tmp t) [a; b] -> Z.testbit L t = true) ->
  Ag (Z.lor L (loc_tmp_use d)) (bc_binop w op s d a b) (bc_binop w op h d a b).
Proof.
  intros w op L s h d a b AG U.
  assert (Ua : forall t, a = Tmp t -> Z.testbit L t = true) by (intros t H; apply U; left; exact H).
  assert (Ub : forall t, b = Tmp t -> Z.testbit L t = true) by (intros t H; apply U; right; left; exact H).
  unfold bc_binop. destruct (loc_eqb d a).
  - destruct (read_ag w L s h b AG Ub) as (vb & s1 & h1 & -> & -> & A1).
    destruct (read_ag w L s1 h1 a A1 Ua) as (va & s2 & h2 & -> & -> & A2).
    apply write_ag, A2.
  - destruct (read_ag w L s h a AG Ua) as (va & s1 & h1 & -> & -> & A1).
    destruct (read_ag w L s1 h1 b A1 Ub) as (vb & s2 & h2 & -> & -> & A2).
    apply write_ag, A2.
Qed.

Lemma scan_ag : forall f c sh L s h, Ag L s h ->
  match bc_scan f c sh s, bc_scan f c sh h with
  | Some s', Some h' => Ag L s' h'
  | None, None => True
  | _, _ => False
  end.
Proof.
  induction f as [|f IH]; intros c sh L s h AG; cbn [bc_scan]; [exact I|].
  destruct AG as (m & -> & E). change (bc_mem (with_tmps s m) c) with (bc_mem s c).
  destruct (bc_mem s c =? 0); [exact (Ag_with L s m E)|].
  exact (IH c sh L (bc_move s sh) _ (Ag_with L (bc_move s sh) m E)).
Qed.

Lemma havoc_from_spec : forall n t0 hv nr l d s, exists m,
  havoc_from n t0 hv nr l d s = with_tmps s m /\
  forall t, clobbered nr l d t = false -> tget m t = tget (bc_tmps s) t.
Proof.
  induction n as [|n IH]; intros t0 hv nr l d s; cbn [havoc_from].
  - exists (bc_tmps s). split; [destruct s; reflexivity|reflexivity].
  - destruct (IH (t0 + 1) hv nr l d (if clobbered nr l d t0 then bc_set_tmp s t0 (hv t0) else s)) as (m & -> & E).
    exists m. destruct (clobbered nr l d t0) eqn:CL; (split; [reflexivity|]); [|exact E].
    intros t NC. rewrite (E t NC). cbn [bc_set_tmp bc_tmps]. rewrite tget_tset.
    destruct (t0 =? t) eqn:Q; [apply Z.eqb_eq in Q; subst; congruence|reflexivity].
Qed.

Lemma havoc_ag : forall L T hv nr l d s h, Ag L s h ->
  (forall t, Z.testbit T t = true -> Z.testbit L t = true /\ clobbered nr l d t = false) ->
  Ag T s (havoc hv nr l d h).
Proof.
  intros L T hv nr l d s h (m & -> & E) S. unfold havoc.
  destruct (havoc_from_spec 16 0 hv nr l d (with_tmps s m)) as (m' & -> & E').
  apply (Ag_with T s m'). intros t H. destruct (S t H) as (H1 & H2). rewrite (E' t H2). apply E, H1.
Qed.

Lemma eff_ag : forall w e fuel L i s h, Ag L s h ->
  (forall t, List.In (Tmp t) (srcs_of i) -> Z.testbit L t = true) ->
  match bc_eff w e fuel i s, bc_eff w e fuel i h with
  | inl s1, inl h1 => Ag (Z.lor L (defs i)) s1 h1
  | inr o, inr o' => sameobs o' o
  | _, _ => False
  end.
Proof.
  intros w e fuel L i s h AG SRC.
  destruct i as [|c sh|sh|dst|src|c off|c off|d a b|d a b|d a b|d a]; cbn [bc_eff defs]; rewrite ?Z.lor_0_r;
    try exact AG; try exact (binop_ag w _ L s h d a b AG SRC).
  - pose proof (scan_ag fuel c sh L s h AG) as SC.
    destruct (bc_scan fuel c sh s), (bc_scan fuel c sh h); try contradiction; [exact SC|exact (sameobs_ag _ _ _ AG)].
  - destruct AG as (m & -> & E). exact (Ag_with L (bc_move s sh) m E).
  - destruct AG as (m & -> & E). change (bc_io (with_tmps s m)) with (bc_io s).
    destruct (do_input e (bc_io s)) as [v io'|io']; [|repeat split].
    exact (Ag_with L (bc_set_mem (bc_set_io s io') dst (from_u8 w v)) m E).
  - destruct AG as (m & -> & E). change (bc_io (with_tmps s m)) with (bc_io s).
    change (bc_mem (with_tmps s m) src) with (bc_mem s src).
    destruct (do_output e (bc_io s) _) as [u io'|io']; [exact (Ag_with L (bc_set_io s io') m E)|repeat split].
  - destruct (read_ag w L s h a AG (fun t H => SRC t (or_introl H))) as (v & s1 & h1 & -> & -> & A1).
    apply write_ag, A1.
Qed.

Lemma goto_ag : forall L i s h, Ag L s h -> Ag L (bc_goto i s) (bc_goto i h).
Proof.
  intros L i s h (m & -> & E).
  assert (N : forall pc, Ag L (bc_set_pc s pc) (bc_set_pc (with_tmps s m) pc)) by (intros pc; exact (Ag_with L (bc_set_pc s pc) m E)).
  destruct i; try apply N; cbn [bc_goto]; change (bc_mem (with_tmps s m) ?c) with (bc_mem s c);
    destruct (bc_mem s _ =? 0); apply N.
Qed.

(** [bc_exec_h] one instruction at a time, in the terms of [BCProofs.bc_exec_step] *)
Lemma bc_exec_h_step : forall w e fetch live nr hv len f h,
  bc_exec_h w e fetch live nr hv len (S f) h =
  if bc_pc h =? len then Done h
  else match fetch (bc_pc h) with
       | None => Errored (bc_pc h) h
       | Some i => match bc_eff w e (S f) i h with
                   | inl h1 => bc_exec_h w e fetch live nr hv len f
                                 (if is_branch i then bc_goto i h1 else hnext live nr hv f i (bc_pc h) h1)
                   | inr o => o
                   end
       end.
Proof.
  intros w e fetch live nr hv len f h. cbn [bc_exec_h]. destruct (bc_pc h =? len); [reflexivity|].
  destruct (fetch (bc_pc h)) as [i|]; [|reflexivity].
  destruct i as [|c sh|sh|d|src|c off|c off|d a b|d a b|d a b|d a]; cbn [bc_eff bc_goto is_branch]; try reflexivity.
  - destruct (bc_scan (S f) c sh h); reflexivity.
  - destruct (do_input e (bc_io h)); reflexivity.
  - destruct (do_output e (bc_io h) _); reflexivity.
  - destruct (bc_mem h c =? 0); reflexivity.
  - destruct (bc_mem h c =? 0); reflexivity.
  - destruct (bc_read w h a); reflexivity.
Qed.

Section Main.
Variable num_regs : Z.
Variable fuse : bool.
Variable p : bprog.
Hypothesis WF : bc_wf num_regs fuse p = true.
Variable w : Z.
Variable e : env.
Variable hv : nat -> Z -> Z.
Let code := bp_code p.
Let len := Z.of_nat (length code).

Theorem havoc_lockstep : forall lin, bwd_valid code 0 lin = true -> live_ok num_regs code (bp_live p) 0 lin = true ->
  forall fuel s h, Ag (aget lin 0 (bc_pc s)) s h ->
  sameobs (bc_exec_h w e (fetch_of p) (live_of p) num_regs hv len fuel h) (bc_exec w e false (fetch_of p) len fuel s).
Proof.
  intros lin V LO. induction fuel as [|f IH]; intros s h AG; [exact (sameobs_ag _ _ _ AG)|].
  rewrite bc_exec_h_step, bc_exec_step. destruct (sameobs_ag _ _ _ AG) as (_ & _ & C & _). rewrite C.
  destruct (bc_pc s =? len); [exact (sameobs_ag _ _ _ AG)|].
  (* a fetch outside the code would end both runs alike *)
  rewrite fetch_instr_at. fold code. destruct (instr_at code (bc_pc s)) as [i|] eqn:IA; [|exact I]. rewrite charge_false.
  destruct (bwd_valid_sound lin code V (bc_pc s) i IA) as [USE PASS].
  assert (SRC : forall t, List.In (Tmp t) (srcs_of i) -> Z.testbit (aget lin 0 (bc_pc s)) t = true).
  { intros t HS. apply USE, uses_reads; [|exact HS].
    apply (wf_temps_in_range num_regs fuse p WF (bc_pc s) i t IA (srcs_temps i t HS)). }
  pose proof (eff_ag w e (S f) (aget lin 0 (bc_pc s)) i s h AG SRC) as EA.
  pose proof (eff_ctl w e (S f) i s) as EC.
  destruct (bc_eff w e (S f) i s) as [s1|o]; destruct (bc_eff w e (S f) i h) as [h1|o'];
    try contradiction; [|exact EA].
  pose proof (goto_succs i s1) as HS. rewrite EC in HS.
  (* what is live at the successor is live here or written by the instruction *)
  assert (SUB : forall t, Z.testbit (aget lin 0 (bc_pc (bc_goto i s1))) t = true ->
                  Z.testbit (Z.lor (aget lin 0 (bc_pc s)) (defs i)) t = true).
  { intros t HT. rewrite Z.lor_spec. destruct (Z.testbit (defs i) t) eqn:HD; [apply orb_true_r|].
    rewrite (PASS _ t HS HT HD). reflexivity. }
  apply IH.
  destruct (is_branch i) eqn:NB; [exact (Ag_sub _ _ _ _ (goto_ag _ i s1 h1 EA) SUB)|].
  (* a clobbered register is neither written by the instruction nor declared live across it, so
     by [live_ok] it is not live at the successor *)
  replace (bc_goto i s1) with (next s1) in * by (destruct i; try reflexivity; discriminate NB).
  unfold hnext. apply (goto_ag _ Noop). (* [next] is [bc_goto Noop] *)
  apply (havoc_ag _ _ _ _ _ _ _ _ EA). intros t HT. split; [exact (SUB t HT)|].
  destruct (live_ok_sound num_regs lin code (bp_live p) LO (bc_pc s) i IA NB) as (l & HL & HB).
  assert (LV : live_of p (bc_pc s) = l).
  { unfold live_of. rewrite (proj2 (Z.ltb_ge _ _) (proj1 (instr_at_nth code _ i IA))). apply nth_error_nth. exact HL. }
  unfold clobbered. rewrite LV. destruct (Z.testbit (defs i) t) eqn:HD; [apply andb_false_r|].
  destruct (t <? Z.min num_regs 16) eqn:TR; [|reflexivity]. apply Z.ltb_lt in TR.
  rewrite (HB _ t HS HT HD TR). reflexivity.
Qed.
End Main.

Theorem havoc_unobservable : forall num_regs fuse p, bc_wf num_regs fuse p = true -> forall w e hv fuel,
  sameobs (bc_run_h w e num_regs hv fuel p) (bc_run w e false 0 fuel p).
Proof.
  intros num_regs fuse p WF w e hv fuel.
  destruct (wf_parts num_regs fuse p WF) as (_ & _ & _ & _ & _ & (lin & V & L)).
  unfold bc_run_h, bc_run. cbn [andb].
  apply (havoc_lockstep num_regs fuse p WF w e hv lin V L fuel (bc0 0) (bc0 0)).
  exact (Ag_with _ (bc0 0) tempty (fun _ _ => eq_refl)).
Qed.
