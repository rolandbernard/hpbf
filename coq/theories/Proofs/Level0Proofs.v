(** * Level0Proofs.v — C01 and C08 at level 0 (where [Program::optimize] is the identity): the IR
    that [Program::parse] produces (model: [Parse.parse]), run by the IR interpreter (model:
    [IR.ir_exec]), ends as the canonical run [BF.bf_exec] ends, with the same events, whenever
    either of them ends normally or on an I/O failure.

    The parser is a one-pass compiler: it delays '+'/'-' in a per-frame buffer of pending
    increments, flushes them before '.', before loops that touch them, and at the end, and turns
    [-]-like loops into a store of zero.  The proof relates the canonical tape to the IR tape
    plus the pending increments of the frame ([Rp], [Rf]) plus the pending increments of the
    enclosing frames, which the current loop provably never touches ([ctx], [quiet]).  Both
    semantics are used through the sets of outcomes of their runs that end ([cruns], [runs]). *)
From Coq Require Import ZArith List Bool Lia Sorted.
From HPBF Require Import Cell IO BF Expr IR Parse MachineProofs BigStepProofs InplaceProofs CellProofs.
Import ListNotations.
Open Scope Z_scope.

Section Arith.
Variable w : Z.
Hypothesis Hw : 0 <= w.

Lemma wadd_norm : forall a b, wadd w a b = norm w (a + b).
Proof. reflexivity. Qed.

Lemma norm_small : forall x, 0 <= x < 2 ^ w -> norm w x = x.
Proof. intros. unfold norm. apply Z.mod_small. assumption. Qed.

Lemma norm_norm_add_l : forall a b, norm w (norm w a + b) = norm w (a + b).
Proof. intros. unfold norm. apply Z.add_mod_idemp_l. pose proof (pow2_pos w Hw). lia. Qed.

Lemma norm_norm_add_r : forall a b, norm w (a + norm w b) = norm w (a + b).
Proof. intros. unfold norm. apply Z.add_mod_idemp_r. pose proof (pow2_pos w Hw). lia. Qed.
End Arith.

Definition bkeys (b : buff) : list Z := map fst b.

Lemma buff_get_set : forall b k v k2,
  buff_get (buff_set b k v) k2 = if k =? k2 then Some v else buff_get b k2.
Proof.
  induction b as [|[k' v'] b IH]; intros k v k2; cbn [buff_set buff_get].
  - reflexivity.
  - destruct (k =? k') eqn:E1.
    + apply Z.eqb_eq in E1. subst k'. cbn [buff_get]. destruct (k =? k2); reflexivity.
    + destruct (k <? k') eqn:E2; cbn [buff_get].
      * reflexivity.
      * rewrite IH. destruct (k' =? k2) eqn:E3; [|reflexivity].
        apply Z.eqb_eq in E3. subst k2. rewrite E1. reflexivity.
Qed.

Lemma buff_val_set : forall b k v k2,
  buff_val (buff_set b k v) k2 = if k =? k2 then v else buff_val b k2.
Proof. intros. unfold buff_val. rewrite buff_get_set. destruct (k =? k2); reflexivity. Qed.

Lemma bkeys_set : forall b k v k2, List.In k2 (bkeys (buff_set b k v)) <-> k = k2 \/ List.In k2 (bkeys b).
Proof.
  induction b as [|[k' v'] b IH]; intros k v k2; cbn [buff_set]; [reflexivity|].
  destruct (k =? k') eqn:E1; [|destruct (k <? k')]; cbn [bkeys map fst List.In].
  - apply Z.eqb_eq in E1. subst k'. split; [intros [H|H]; auto|intros [H|[H|H]]; auto].
  - reflexivity.
  - fold (bkeys (buff_set b k v)) (bkeys b). rewrite IH, <- !or_assoc, (or_comm (k' = k2)). reflexivity.
Qed.

Definition bsorted (b : buff) : Prop := StronglySorted Z.lt (bkeys b).

Lemma bsorted_set : forall b k v, bsorted b -> bsorted (buff_set b k v).
Proof.
  unfold bsorted. induction b as [|[k' v'] b IH]; intros k v So; cbn [buff_set].
  - cbn. constructor; constructor.
  - cbn [bkeys map fst] in So. inversion So as [|x l So' F]; subst.
    destruct (k =? k') eqn:E1.
    + apply Z.eqb_eq in E1. subst k'. cbn [bkeys map fst]. constructor; assumption.
    + destruct (k <? k') eqn:E2.
      * apply Z.ltb_lt in E2. cbn [bkeys map fst]. constructor; [exact So|].
        constructor; [exact E2|]. eapply Forall_impl; [|exact F]. intros a Ha. cbn in Ha. lia.
      * cbn [bkeys map fst]. fold (bkeys (buff_set b k v)). constructor; [apply IH; exact So'|].
        apply Forall_forall. intros x Hx. apply bkeys_set in Hx. apply Z.eqb_neq in E1. apply Z.ltb_ge in E2.
        destruct Hx as [<-|Hx]; [lia|]. rewrite Forall_forall in F. apply F. exact Hx.
Qed.

Lemma bkeys_zero_all : forall b, bkeys (zero_all b) = bkeys b.
Proof. intros. unfold bkeys, zero_all. rewrite map_map. reflexivity. Qed.

Lemma buff_val_zero_all : forall b k, buff_val (zero_all b) k = 0.
Proof.
  intros b k. unfold buff_val. induction b as [|[k' v'] b IH]; cbn; [reflexivity|].
  destruct (k' =? k); [reflexivity|exact IH].
Qed.

Lemma buff_val_notin : forall b k, ~ List.In k (bkeys b) -> buff_val b k = 0.
Proof.
  intros b k. unfold buff_val. induction b as [|[k0 v0] b IH]; intros N; [reflexivity|].
  cbn [buff_get]. destruct (k0 =? k) eqn:E.
  - apply Z.eqb_eq in E. destruct N. left. exact E.
  - apply IH. intros HI. apply N. right. exact HI.
Qed.

Definition iterminal (o : outcome irst) : Prop := match o with Done _ | Stopped _ => True | _ => False end.

Section Unlimited.
Variable w : Z.
Variable e : env.

Definition io_outcome {A} (s : irst) (r : io_res A) (k : A -> irst -> irst) : outcome irst :=
  match r with IoOk a i => Done (k a (ir_set_io s i)) | IoFail i => Stopped (ir_set_io s i) end.

Definition after_body (sh : Z) (o : outcome irst) : outcome irst :=
  match o with Done s | Interrupted s => Done (ir_move s sh) | _ => o end.

(** What the first instruction does, given [f] units of fuel for a body: how it ends, and whether
    it is to be executed again (a loop whose body ended normally).  The five kinds of instruction
    differ in this only; what the interpreter does with it is the same for all ([ir_exec_cons]). *)
Definition ir_head (f : nat) (i : instr) (s : irst) : outcome irst * bool :=
  match i with
  | IOut src => (io_outcome s (do_output e (ir_io s) (into_u8 w (ir_read s src))) (fun _ s' => s'), false)
  | IIn dst => (io_outcome s (do_input e (ir_io s)) (fun b s' => ir_write s' dst (from_u8 w b)), false)
  | ICalc calcs => (Done (ir_calc w calcs s), false)
  | ILoop cond sh body _ =>
      if ir_read s cond =? 0 then (Done s, false) else (after_body sh (ir_exec w e false f body s), true)
  | IIf cond sh body =>
      if ir_read s cond =? 0 then (Done s, false) else (after_body sh (ir_exec w e false f body s), false)
  end.

Lemma ir_exec_cons : forall f i rest s,
  ir_exec w e false (S f) (i :: rest) s =
  match ir_head f i s with
  | (Done s', again) => ir_exec w e false f (if again then i :: rest else rest) s'
  | (o, _) => o
  end.
Proof.
  intros f i rest s. destruct i; cbn [ir_exec ir_head]; unfold io_outcome.
  - destruct (do_output _ _ _); reflexivity.
  - destruct (do_input _ _); reflexivity.
  - reflexivity.
  - destruct (ir_read s cond =? 0); [reflexivity|]. destruct (ir_exec w e false f body s); reflexivity.
  - destruct (ir_read s cond =? 0); [reflexivity|]. destruct (ir_exec w e false f body s); reflexivity.
Qed.

Lemma ir_unlimited_outcomes : forall f p s,
  match ir_exec w e false f p s with Interrupted _ | Errored _ _ => False | _ => True end.
Proof.
  induction f as [|f IH]; intros p s; [exact I|]. destruct p as [|i rest]; [exact I|]. rewrite ir_exec_cons.
  assert (HH : match fst (ir_head f i s) with Interrupted _ | Errored _ _ => False | _ => True end).
  { destruct i; cbn [ir_head]; unfold io_outcome.
    - destruct (do_output _ _ _); exact I.
    - destruct (do_input _ _); exact I.
    - exact I.
    - destruct (ir_read s cond =? 0); [exact I|]. pose proof (IH body s) as B. destruct (ir_exec w e false f body s); exact B || exact I.
    - destruct (ir_read s cond =? 0); [exact I|]. pose proof (IH body s) as B. destruct (ir_exec w e false f body s); exact B || exact I. }
  destruct (ir_head f i s) as [[s'|s'|s'|q s'|s'] again]; try exact HH; try exact I. apply IH.
Qed.

Lemma ir_head_mono : forall f f' i s,
  (forall p s o, ir_exec w e false f p s = o -> iterminal o -> ir_exec w e false f' p s = o) ->
  iterminal (fst (ir_head f i s)) -> ir_head f' i s = ir_head f i s.
Proof.
  intros f f' i s IH T. destruct i; try reflexivity; cbn [ir_head] in *.
  (* [ILoop] and [IIf] alike: by [T] the body ended, so it does the same with fuel [f'] *)
  all: destruct (ir_read s cond =? 0); [reflexivity|]; cbn [fst] in T.
  all: pose proof (ir_unlimited_outcomes f body s) as NB.
  all: destruct (ir_exec w e false f body s) eqn:B; try contradiction.
  all: rewrite (IH _ _ _ B I); reflexivity.
Qed.

Lemma ir_exec_mono : forall f p s o, ir_exec w e false f p s = o -> iterminal o ->
  forall f', (f <= f')%nat -> ir_exec w e false f' p s = o.
Proof.
  induction f as [|f IH]; intros p s o H T f' L; [subst o; contradiction|].
  destruct f' as [|f']; [inversion L|]. apply le_S_n in L. destruct p as [|i rest]; [exact H|]. rewrite ir_exec_cons in H |- *.
  rewrite (ir_head_mono f f' i s (fun p s o H T => IH p s o H T f' L))
    by (destruct (ir_head f i s) as [[] ?]; try exact I; subst o; exact T).
  destruct (ir_head f i s) as [[s1|s1|s1|q s1|s1] again]; try exact H. apply (IH _ _ _ H T), L.
Qed.

Lemma ir_exec_app : forall f a s o1 g b o, ir_exec w e false f a s = o1 -> iterminal o1 ->
  match o1 with Done s1 => ir_exec w e false g b s1 = o /\ iterminal o | _ => o = o1 end ->
  ir_exec w e false (f + g) (a ++ b) s = o.
Proof.
  induction f as [|f IH]; intros a s o1 g b o H T1 H2; [subst o1; contradiction|]. destruct a as [|i rest].
  - cbn [ir_exec] in H. subst o1. destruct H2 as [B T2]. apply (ir_exec_mono g b s o B T2), Nat.le_add_l.
  - cbn [app plus]. rewrite ir_exec_cons in H |- *.
    rewrite (ir_head_mono f (f + g) i s (fun p s o H T => ir_exec_mono f p s o H T (f + g)%nat (Nat.le_add_r f g)))
      by (destruct (ir_head f i s) as [[] ?]; try exact I; subst o1; exact T1).
    destruct (ir_head f i s) as [[s1|s1|s1|q s1|s1] again]; try (subst o1; contradiction).
    + destruct again; [change (i :: rest ++ b) with ((i :: rest) ++ b)|]; eapply IH; eassumption.
    + subst o1. symmetry. exact H2.
Qed.

Lemma ir_exec_app_inv : forall f a b s o, ir_exec w e false f (a ++ b) s = o -> iterminal o ->
  exists o1, ir_exec w e false f a s = o1 /\ iterminal o1 /\
    match o1 with Done s1 => ir_exec w e false f b s1 = o | _ => o = o1 end.
Proof.
  induction f as [|f IH]; intros a b s o H T; [subst o; contradiction|]. destruct a as [|i rest].
  - exists (Done s). split; [reflexivity|split; [exact I|exact H]].
  - cbn [app] in H. rewrite ir_exec_cons in H |- *.
    destruct (ir_head f i s) as [[s1|s1|s1|q s1|s1] again]; try (subst o; contradiction).
    + assert (H' : ir_exec w e false f ((if again then i :: rest else rest) ++ b) s1 = o) by (destruct again; exact H).
      destruct (IH _ _ _ _ H' T) as (o1 & A & T1 & B). exists o1. split; [exact A|split; [exact T1|]].
      destruct o1; try exact B. apply (ir_exec_mono f b _ o B T), Nat.le_succ_diag_r.
    + exists (Stopped s1). split; [reflexivity|split; [exact I|symmetry; exact H]].
Qed.
End Unlimited.

(** Sets of outcomes: a program is a first part and then the rest ([chain]), a loop is the
    iterations of its body ([iter]).  A simulation in both directions between two such sets
    ([bisim]) is preserved by both constructions. *)
Definition chain {A} (P1 : outcome A -> Prop) (P2 : A -> outcome A -> Prop) (o : outcome A) : Prop :=
  exists o1, P1 o1 /\ match o1 with Done s1 => P2 s1 o | _ => o = o1 end.

(** [next] is what a loop does between a body that ended normally and the next test *)
Inductive iter {A} (test : A -> bool) (body : A -> outcome A -> Prop) (next : A -> A) : A -> outcome A -> Prop :=
| iter_exit : forall s, test s = true -> iter test body next s (Done s)
| iter_next : forall s s1 o, test s = false -> body s (Done s1) -> iter test body next (next s1) o ->
    iter test body next s o
| iter_stop : forall s s1, test s = false -> body s (Stopped s1) -> iter test body next s (Stopped s1).

Lemma iter_det : forall {A} test (body : A -> outcome A -> Prop) next,
  (forall s o o', body s o -> body s o' -> o = o') ->
  forall s o, iter test body next s o -> forall o', iter test body next s o' -> o = o'.
Proof.
  intros A test body next D s o H.
  induction H as [s T|s s1 o T B _ IH|s s1 T B]; intros o' H';
    inversion H' as [? T'|? s1' ? T' B' H''|? s1' T' B']; subst.
  (* the test tells exit from the rest, [D] on the two bodies tells next from stop *)
  all: try congruence.
  all: pose proof (D _ _ _ B B') as E; try discriminate E.
  - injection E as ->. apply IH, H''.
  - exact E.
Qed.

Section Sims.
Context {A B : Type}.

Definition alike (R S : A -> B -> Prop) (a : outcome A) (b : outcome B) : Prop :=
  match a, b with
  | Done x, Done y => R x y
  | Stopped x, Stopped y => S x y
  | _, _ => False
  end.

Definition sim (P : outcome A -> Prop) (Q : outcome B -> Prop) (M : outcome A -> outcome B -> Prop) : Prop :=
  forall a, P a -> exists b, Q b /\ M a b.

Lemma sim_chain : forall P1 P2 Q1 Q2 (R1 R S : A -> B -> Prop),
  sim P1 Q1 (alike R1 S) -> (forall x y, R1 x y -> sim (P2 x) (Q2 y) (alike R S)) ->
  sim (chain P1 P2) (chain Q1 Q2) (alike R S).
Proof.
  intros P1 P2 Q1 Q2 R1 R S H1 H2 a (a1 & HP1 & HP2). destruct (H1 a1 HP1) as (b1 & HQ1 & M1).
  destruct a1 as [x|x|x|q x|x]; destruct b1 as [y|y|y|q' y|y]; try contradiction; cbn in HP2.
  - destruct (H2 x y M1 a HP2) as (b & HQ2 & M). exists b. split; [exists (Done y); split; assumption|exact M].
  - subst a. exists (Stopped y). split; [exists (Stopped y); split; [assumption|reflexivity]|exact M1].
Qed.

Lemma sim_iter : forall test test' body body' next next' (Inv S : A -> B -> Prop),
  (forall x y, Inv x y -> test x = test' y) ->
  (forall x y, Inv x y -> sim (body x) (body' y) (alike (fun x1 y1 => Inv (next x1) (next' y1)) S)) ->
  forall x y, Inv x y -> sim (iter test body next x) (iter test' body' next' y) (alike Inv S).
Proof.
  intros test test' body body' next next' Inv S HT HB x y I0 a H. revert y I0.
  induction H as [x T|x x1 a T Bx _ IH|x x1 T Bx]; intros y I0; rewrite (HT _ _ I0) in T.
  - exists (Done y). split; [apply iter_exit; exact T|exact I0].
  - destruct (HB _ _ I0 _ Bx) as ([y1|y1|y1|q y1|y1] & By & M1); try contradiction.
    destruct (IH _ M1) as (b & Hb & M). exists b. split; [eapply iter_next; eassumption|exact M].
  - destruct (HB _ _ I0 _ Bx) as ([y1|y1|y1|q y1|y1] & By & M1); try contradiction.
    exists (Stopped y1). split; [eapply iter_stop; eassumption|exact M1].
Qed.
End Sims.

Definition bisim {A B} (P : outcome A -> Prop) (Q : outcome B -> Prop) (R S : A -> B -> Prop) : Prop :=
  sim P Q (alike R S) /\ sim Q P (alike (fun y x => R x y) (fun y x => S x y)).

Lemma bisim_chain : forall {A B} P1 P2 Q1 Q2 (R1 R S : A -> B -> Prop),
  bisim P1 Q1 R1 S -> (forall x y, R1 x y -> bisim (P2 x) (Q2 y) R S) ->
  bisim (chain P1 P2) (chain Q1 Q2) R S.
Proof.
  intros A B P1 P2 Q1 Q2 R1 R S [F1 B1] H2. split.
  - eapply sim_chain; [exact F1|]. intros x y H. apply (H2 x y H).
  - eapply sim_chain; [exact B1|]. intros y x H. apply (H2 x y H).
Qed.

Lemma bisim_iter : forall {A B} test test' body body' next next' (Inv S : A -> B -> Prop),
  (forall x y, Inv x y -> test x = test' y) ->
  (forall x y, Inv x y -> bisim (body x) (body' y) (fun x1 y1 => Inv (next x1) (next' y1)) S) ->
  forall x y, Inv x y -> bisim (iter test body next x) (iter test' body' next' y) Inv S.
Proof.
  intros A B test test' body body' next next' Inv S HT HB x y I0. split.
  - apply sim_iter; [exact HT|intros x0 y0 H; apply (HB x0 y0 H)|exact I0].
  - apply (sim_iter test' test body' body next' next (fun y x => Inv x y));
      [intros y0 x0 H; symmetry; apply HT, H|intros y0 x0 H; apply (HB x0 y0 H)|exact I0].
Qed.

Lemma bisim_det : forall {A B} (P : outcome A -> Prop) (Q : outcome B -> Prop) (R S : A -> B -> Prop) a b,
  (forall a1 a2, P a1 -> P a2 -> a1 = a2) -> (forall b1 b2, Q b1 -> Q b2 -> b1 = b2) ->
  P a -> Q b -> alike R S a b -> bisim P Q R S.
Proof.
  intros A B P Q R S a b DP DQ Pa Qb M. split.
  - intros a' H. rewrite (DP a' a H Pa). exists b. split; assumption.
  - intros b' H. rewrite (DQ b' b H Qb). exists a. split; [assumption|].
    destruct a; destruct b; try contradiction; exact M.
Qed.

Lemma bisim_ext : forall {A B} (P P' : outcome A -> Prop) (Q Q' : outcome B -> Prop) (R R' S : A -> B -> Prop),
  (forall a, P' a <-> P a) -> (forall b, Q' b <-> Q b) -> (forall x y, R x y -> R' x y) ->
  bisim P Q R S -> bisim P' Q' R' S.
Proof.
  intros A B P P' Q Q' R R' S EP EQ ER [F Bk]. split.
  - intros a H. destruct (F a (proj1 (EP a) H)) as (b & Hb & M). exists b. split; [apply EQ, Hb|].
    destruct a; destruct b; try contradiction; [apply ER|]; exact M.
  - intros b H. destruct (Bk b (proj1 (EQ b) H)) as (a & Ha & M). exists a. split; [apply EP, Ha|].
    destruct a; destruct b; try contradiction; [apply ER|]; exact M.
Qed.

Lemma chain_ret : forall {A} (P : outcome A -> Prop) o, chain P (fun s o => o = Done s) o <-> P o.
Proof.
  intros A P o. split.
  - intros (o1 & H & E). destruct o1; cbn in E; subst o; exact H.
  - intros H. exists o. split; [exact H|]. destruct o; reflexivity.
Qed.

Section Runs.
Variable w : Z.
Variable e : env.

Definition runs (code : list instr) (s : irst) (o : outcome irst) : Prop :=
  iterminal o /\ exists f, ir_exec w e false f code s = o.

Lemma runs_det : forall code s o1 o2, runs code s o1 -> runs code s o2 -> o1 = o2.
Proof.
  intros code s o1 o2 [T1 [f H1]] [T2 [g H2]].
  rewrite <- (ir_exec_mono w e f code s o1 H1 T1 (f + g)%nat (Nat.le_add_r f g)).
  apply (ir_exec_mono w e g code s o2 H2 T2), Nat.le_add_l.
Qed.

Lemma runs_app : forall a b s o, runs (a ++ b) s o <-> chain (runs a s) (runs b) o.
Proof.
  intros a b s o. split.
  - intros [T [f H]]. destruct (ir_exec_app_inv w e f a b s o H T) as (o1 & A & T1 & B).
    exists o1. split; [split; [exact T1|exists f; exact A]|].
    destruct o1; try exact B. split; [exact T|exists f; exact B].
  - intros (o1 & [T1 [f H1]] & H2). destruct o1 as [s1|s1|s1|q s1|s1]; try contradiction.
    + destruct H2 as [T2 [g H2]]. split; [exact T2|]. exists (f + g)%nat. apply (ir_exec_app w e f a s _ g b o H1 I (conj H2 T2)).
    + cbn in H2. subst o. split; [exact I|]. exists (f + 0)%nat. apply (ir_exec_app w e f a s _ 0%nat b _ H1 I eq_refl).
Qed.

Lemma runs_after : forall a b s s1 o, runs a s (Done s1) -> (runs (a ++ b) s o <-> runs b s1 o).
Proof.
  intros a b s s1 o X. rewrite runs_app. split.
  - intros (o1 & X1 & X2). rewrite (runs_det _ _ _ _ X1 X) in X2. exact X2.
  - intros X2. exists (Done s1). split; assumption.
Qed.

Lemma runs_nil : forall s, runs [] s (Done s).
Proof. intros s. split; [exact I|]. exists 1%nat. reflexivity. Qed.

Lemma runs_calc : forall calcs s, runs [ICalc calcs] s (Done (ir_calc w calcs s)).
Proof. intros. split; [exact I|]. exists 2%nat. reflexivity. Qed.

Lemma runs_out : forall src s,
  runs [IOut src] s (io_outcome s (do_output e (ir_io s) (into_u8 w (ir_read s src))) (fun _ s' => s')).
Proof.
  intros. unfold io_outcome. destruct (do_output e (ir_io s) _) as [u i|i] eqn:E;
    (split; [exact I|]); exists 2%nat; cbn [ir_exec]; rewrite E; reflexivity.
Qed.

Lemma runs_in : forall dst s,
  runs [IIn dst] s (io_outcome s (do_input e (ir_io s)) (fun b s' => ir_write s' dst (from_u8 w b))).
Proof.
  intros. unfold io_outcome. destruct (do_input e (ir_io s)) as [b i|i] eqn:E;
    (split; [exact I|]); exists 2%nat; cbn [ir_exec]; rewrite E; reflexivity.
Qed.

Lemma runs_loop : forall cond sh body once s o,
  runs [ILoop cond sh body once] s o <->
  iter (fun s => ir_read s cond =? 0) (runs body) (fun s => ir_move s sh) s o.
Proof.
  intros cond sh body once s o. split.
  - intros [T [f H]]. revert s H. induction f as [|f IH]; intros s H; [subst o; contradiction|].
    cbn [ir_exec] in H. destruct (ir_read s cond =? 0) eqn:C.
    + destruct f; [subst o; contradiction|]. subst o. apply iter_exit. exact C.
    + pose proof (ir_unlimited_outcomes w e f body s) as NB.
      destruct (ir_exec w e false f body s) as [s1|s1|s1|q s1|s1] eqn:B; try contradiction.
      * eapply iter_next; [exact C|split; [exact I|exists f; exact B]|apply IH, H].
      * subst o. eapply iter_stop; [exact C|split; [exact I|exists f; exact B]].
      * subst o. contradiction.
  - intros H. induction H as [s C|s s1 o C [_ [f B]] _ [T [g H]]|s s1 C [_ [f B]]].
    + split; [exact I|]. exists 2%nat. cbn [ir_exec]. rewrite C. reflexivity.
    + split; [exact T|]. exists (S (f + g)). cbn [ir_exec]. rewrite C.
      rewrite (ir_exec_mono w e f body s _ B I (f + g)%nat (Nat.le_add_r f g)).
      apply (ir_exec_mono w e g _ _ _ H T), Nat.le_add_l.
    + split; [exact I|]. exists (S f). cbn [ir_exec]. rewrite C, B. reflexivity.
Qed.
End Runs.

Definition simple_out (w : Z) (e : env) (c : cmd) (s : bfst) : outcome bfst :=
  match bf_simple w e c s with inl s1 => Done s1 | inr s1 => Stopped s1 end.

Section CRuns.
Variable w : Z.
Variable e : env.

Definition cruns (p : list cmd) (s : bfst) (o : outcome bfst) : Prop :=
  terminal o /\ exists f, bf_exec w e f p s = o.

Lemma cruns_det : forall p s o1 o2, cruns p s o1 -> cruns p s o2 -> o1 = o2.
Proof.
  intros p s o1 o2 [T1 [f H1]] [T2 [g H2]].
  rewrite <- (bf_exec_mono w e f p s o1 H1 T1 (f + g)%nat (Nat.le_add_r f g)).
  apply (bf_exec_mono w e g p s o2 H2 T2), Nat.le_add_l.
Qed.

Lemma cruns_nil : forall s, cruns [] s (Done s).
Proof. intros s. split; [exact I|]. exists 1%nat. reflexivity. Qed.

Lemma cruns_simple : forall c rest s o, simple_cmd c ->
  (cruns (c :: rest) s o <-> chain (eq (simple_out w e c s)) (cruns rest) o).
Proof.
  intros c rest s o NL. unfold simple_out. split.
  - intros [T [f H]]. destruct f; [subst o; contradiction|]. rewrite (bf_exec_simple w e f c rest s NL) in H.
    eexists. split; [reflexivity|]. destruct (bf_simple w e c s) as [s1|s1]; cbn.
    + split; [exact T|exists f; exact H].
    + symmetry. exact H.
  - intros (o1 & <- & H2). destruct (bf_simple w e c s) as [s1|s1] eqn:SM; cbn in H2.
    + destruct H2 as [T [f H]]. split; [exact T|]. exists (S f). rewrite (bf_exec_simple w e f c rest s NL), SM. exact H.
    + subst o. split; [exact I|]. exists 1%nat. rewrite (bf_exec_simple w e 0 c rest s NL), SM. reflexivity.
Qed.

Lemma cruns_loop : forall body rest s o,
  cruns (Loop body :: rest) s o <->
  chain (iter (fun s => cur s =? 0) (cruns body) (fun s => s) s) (cruns rest) o.
Proof.
  intros body rest s o. split.
  - intros [T [f H]]. revert s H. induction f as [|f IH]; intros s H; [subst o; contradiction|].
    cbn [bf_exec] in H. destruct (cur s =? 0) eqn:C.
    + exists (Done s). split; [apply iter_exit; exact C|]. split; [exact T|exists f; exact H].
    + destruct (bf_exec w e f body s) as [s1|s1|s1|q s1|s1] eqn:B; try (subst o; contradiction).
      * destruct (IH s1 H) as (o1 & L & R). exists o1. split; [|exact R].
        eapply iter_next; [exact C|split; [exact I|exists f; exact B]|exact L].
      * exists (Stopped s1). split; [|symmetry; exact H].
        eapply iter_stop; [exact C|split; [exact I|exists f; exact B]].
  - intros (o1 & L & R). revert R.
    induction L as [s C|s s1 o1 C [_ [fb B]] _ IH|s s1 C [_ [fb B]]]; intros R.
    + destruct R as [T [f H]]. split; [exact T|]. exists (S f). cbn [bf_exec]. rewrite C. exact H.
    + destruct (IH R) as [T [g H]]. split; [exact T|]. exists (S (fb + g)). cbn [bf_exec]. rewrite C.
      rewrite (bf_exec_mono w e fb body s _ B I (fb + g)%nat (Nat.le_add_r fb g)).
      apply (bf_exec_mono w e g _ _ _ H T), Nat.le_add_l.
    + cbn in R. subst o. split; [exact I|]. exists (S fb). cbn [bf_exec]. rewrite C, B. reflexivity.
Qed.
End CRuns.

(** induction on the syntax: a loop's body before the loop (a body is a subterm of its loop, so the
    recursion is structural) *)
Lemma prog_ind : forall P : list cmd -> Prop, P [] ->
  (forall c rest, simple_cmd c -> P rest -> P (c :: rest)) ->
  (forall body rest, P body -> P rest -> P (Loop body :: rest)) -> forall p, P p.
Proof.
  intros P H0 Hs Hl.
  assert (G : forall c rest, P rest -> P (c :: rest)).
  { fix IHc 1. intros [| | | | | |body] rest Hr; try (apply Hs; [exact I|exact Hr]).
    apply Hl; [|exact Hr]. induction body as [|c body IHb]; [exact H0|apply IHc, IHb]. }
  induction p as [|c rest IH]; [exact H0|apply G, IH].
Qed.

(** The parser as a function of the syntax tree: [comp_cmd] mirrors [parse_go] branch by branch
    ([parse_go_simple], [parse_go_comp]). *)
Fixpoint comp_cmd (w : Z) (c : cmd) (top : frame) : frame :=
  match c with
  | Right => with_shift top (f_shift top + 1)
  | Left => with_shift top (f_shift top - 1)
  | Inc => with_insts_buff top (f_insts top)
             (buff_set (f_buff top) (f_shift top) (wadd w (buff_val (f_buff top) (f_shift top)) 1))
  | Dec => with_insts_buff top (f_insts top)
             (buff_set (f_buff top) (f_shift top) (wadd w (buff_val (f_buff top) (f_shift top)) (neg_one w)))
  | Out => let '(insts, b) := flush_key (f_shift top) (f_insts top, f_buff top) in
           with_insts_buff top (IOut (f_shift top) :: insts) b
  | In => with_insts_buff top (IIn (f_shift top) :: f_insts top) (buff_set (f_buff top) (f_shift top) 0)
  | Loop body => close_loop w (fold_left (fun f c' => comp_cmd w c' f) body (frame0 (f_shift top))) top
  end.
Definition comp (w : Z) (p : list cmd) (top : frame) : frame := fold_left (fun f c => comp_cmd w c f) p top.

Lemma comp_cons : forall w c p top, comp w (c :: p) top = comp w p (comp_cmd w c top).
Proof. reflexivity. Qed.

Lemma comp_loop : forall w body top,
  comp_cmd w (Loop body) top = close_loop w (comp w body (frame0 (f_shift top))) top.
Proof. reflexivity. Qed.

Lemma parse_go_simple : forall w c r i top stack pos, (c =? ch_open) = false -> (c =? ch_close) = false ->
  parse_go w (c :: r) i top stack pos =
  parse_go w r (i + 1) (match simple_of c with Some x => comp_cmd w x top | None => top end) stack pos.
Proof.
  intros w c r i top stack pos No Nc. cbn [parse_go]. rewrite No, Nc. unfold simple_of.
  destruct (Z.eqb_spec c ch_gt) as [->|_]; [reflexivity|]. destruct (Z.eqb_spec c ch_lt) as [->|_]; [reflexivity|].
  destruct (Z.eqb_spec c ch_plus) as [->|_]; [reflexivity|]. destruct (Z.eqb_spec c ch_minus) as [->|_]; [reflexivity|].
  destruct (c =? ch_dot); [|destruct (c =? ch_comma); reflexivity].
  cbn [comp_cmd]. destruct (flush_key (f_shift top) (f_insts top, f_buff top)). reflexivity.
Qed.

Lemma parse_go_comp : forall text p after, parses text p after ->
  forall w i top stack pos, exists i',
    parse_go w text i top stack pos = parse_go w after i' (comp w p top) stack pos.
Proof.
  intros text p after H. induction H as [|r|c x r cs a No Nc Sx H IH|c r cs a No Nc Sx H IH|r body r2 cs a H1 IH1 H2 IH2];
    intros w i top stack pos.
  - exists i. reflexivity.
  - exists i. reflexivity.
  - destruct (IH w (i + 1) (comp_cmd w x top) stack pos) as [i' Hi']. exists i'.
    rewrite (parse_go_simple w c r i top stack pos No Nc), Sx. exact Hi'.
  - destruct (IH w (i + 1) top stack pos) as [i' Hi']. exists i'.
    rewrite (parse_go_simple w c r i top stack pos No Nc), Sx. exact Hi'.
  - destruct (IH1 w (i + 1) (frame0 (f_shift top)) (top :: stack) (i :: pos)) as [i1 Hi1].
    destruct (IH2 w (i1 + 1) (close_loop w (comp w body (frame0 (f_shift top))) top) stack pos) as [i2 Hi2].
    exists i2. exact (eq_trans Hi1 Hi2).
Qed.

Lemma parse_comp : forall w src p, ast_of_source src = Some p ->
  parse w src = POk (f_shift (comp w p (frame0 0)),
                     rev (flush_nonzero (f_buff (comp w p (frame0 0))) (f_insts (comp w p (frame0 0))))).
Proof.
  intros w src p H. apply ast_parses in H. unfold parse.
  destruct (parse_go_comp _ _ _ H w 0 (frame0 0) [] []) as [i' Hi']. rewrite Hi'. reflexivity.
Qed.

Section Relation.
Variable w : Z.
Variable e : env.
Hypothesis Hw : 0 <= w.

(** [pend k]: increment still owed to the cell at offset [k] from the IR pointer (the frame's
    buffer); [ctx a]: increment owed to the absolute cell [a] by the enclosing frames *)
Definition Rp (ctx : Z -> Z) (sh : Z) (pend : Z -> Z) (sC : bfst) (sI : irst) : Prop :=
  ptr sC = ir_ptr sI + sh /\ io sC = ir_io sI /\
  (forall a, tget (tape sC) a = norm w (tget (ir_tape sI) a + pend (a - ir_ptr sI) + ctx a)) /\
  (forall a, 0 <= tget (ir_tape sI) a < 2 ^ w).

Definition Rf (ctx : Z -> Z) (F : frame) (sC : bfst) (sI : irst) : Prop :=
  Rp ctx (f_shift F) (buff_val (f_buff F)) sC sI /\ bsorted (f_buff F).

(** only the sum of what is owed to a cell matters, not who owes it *)
Lemma Rp_ext : forall ctx ctx' sh pend pend' sC sI,
  (forall a, pend (a - ir_ptr sI) + ctx a = pend' (a - ir_ptr sI) + ctx' a) ->
  Rp ctx sh pend sC sI -> Rp ctx' sh pend' sC sI.
Proof.
  intros ctx ctx' sh pend pend' sC sI E (A & B & C & D). split; [exact A|split; [exact B|split; [|exact D]]].
  intros a. rewrite C, <- !Z.add_assoc, E. reflexivity.
Qed.

Definition cnormal (s : bfst) : Prop := forall a, 0 <= tget (tape s) a < 2 ^ w.

Lemma Rp_cnorm : forall ctx sh pend sC sI, Rp ctx sh pend sC sI -> cnormal sC.
Proof. intros ctx sh pend sC sI (A & B & C & D) a. rewrite C. apply mod_pow2_range, Hw. Qed.

Lemma eval_i_add : forall k v rd, eval w [(v, []); (1, [k])] rd = norm w (v + rd k).
Proof.
  intros. unfold eval, eval_part. cbn [fold_left fst snd]. unfold wadd, wmul, norm.
  rewrite Z.add_0_l, Z.mul_1_l. rewrite <- Z.add_mod; [reflexivity|]. pose proof (pow2_pos w Hw). lia.
Qed.

Lemma ir_calc_one : forall k ex s, ir_calc w [(k, ex)] s = ir_write s k (eval w ex (ir_read s)).
Proof. reflexivity. Qed.

(** what [flush_key] and [flush_nonzero] emit *)
Definition adds_of (k v : Z) : list instr := if v =? 0 then [] else [i_add k v].

Lemma flush_key_eq : forall k insts b,
  flush_key k (insts, b) = (rev (adds_of k (buff_val b k)) ++ insts, buff_set b k 0).
Proof. intros. unfold flush_key, adds_of. destruct (buff_val b k =? 0); reflexivity. Qed.

(** [code] pays part of what is owed and leaves the pointer alone *)
Definition Pays (ctx : Z -> Z) (sh : Z) (sC : bfst) (code : list instr) (pend' : Z -> Z) (sI : irst) : Prop :=
  exists sI', runs w e code sI (Done sI') /\ ir_ptr sI' = ir_ptr sI /\ Rp ctx sh pend' sC sI'.

Lemma Pays_nil : forall ctx sh sC p sI, Rp ctx sh p sC sI -> Pays ctx sh sC [] p sI.
Proof. intros. exists sI. split; [apply runs_nil|split; [reflexivity|assumption]]. Qed.

Lemma Pays_app : forall ctx sh sC c1 c2 p2 p3 sI, Pays ctx sh sC c1 p2 sI ->
  (forall sI2, Rp ctx sh p2 sC sI2 -> Pays ctx sh sC c2 p3 sI2) ->
  Pays ctx sh sC (c1 ++ c2) p3 sI.
Proof.
  intros ctx sh sC c1 c2 p2 p3 sI (s1 & X1 & P1 & R1) H. destruct (H s1 R1) as (s2 & X2 & P2 & R2).
  exists s2. split; [apply (runs_after w e _ _ _ _ _ X1), X2|]. split; [congruence|exact R2].
Qed.

Lemma pay_sim : forall ctx sh sC pend pend' sI k, Rp ctx sh pend sC sI ->
  (forall k', pend' k' = if k =? k' then 0 else pend k') ->
  Pays ctx sh sC (adds_of k (pend k)) pend' sI.
Proof.
  intros ctx sh sC pend pend' sI k H E. unfold adds_of. destruct (pend k =? 0) eqn:Z0.
  - apply Pays_nil. eapply Rp_ext; [|exact H]. intros a. rewrite E.
    destruct (k =? a - ir_ptr sI) eqn:EK; [|reflexivity]. apply Z.eqb_eq in EK, Z0. rewrite <- EK, Z0. reflexivity.
  - destruct H as (A & B & C & D). eexists. split; [apply runs_calc|]. split; [reflexivity|].
    rewrite ir_calc_one, eval_i_add. unfold Rp, ir_write, ir_read. cbn [ir_ptr ir_tape ir_io].
    split; [exact A|split; [exact B|split]].
    + intros a. rewrite tget_tset, E. destruct (ir_ptr sI + k =? a) eqn:EA.
      * apply Z.eqb_eq in EA. subst a. rewrite Z.add_simpl_l, Z.eqb_refl, C, Z.add_simpl_l.
        rewrite Z.add_0_r, (norm_norm_add_l w Hw). f_equal. lia.
      * apply Z.eqb_neq in EA. destruct (k =? a - ir_ptr sI) eqn:E2; [apply Z.eqb_eq in E2; lia|]. apply C.
    + intros a. rewrite tget_tset. destruct (ir_ptr sI + k =? a); [apply mod_pow2_range, Hw|apply D].
Qed.

(** [flush_key] for each of [ks] in turn: the code, and the buffer it leaves *)
Fixpoint keys_code (ks : list Z) (b : buff) : list instr :=
  match ks with [] => [] | k :: ks' => adds_of k (buff_val b k) ++ keys_code ks' (buff_set b k 0) end.
Definition zero_keys (ks : list Z) (b : buff) : buff := fold_left (fun b k => buff_set b k 0) ks b.

Lemma flush_keys_eq : forall (l : buff) insts b,
  fold_left (fun st kv => flush_key (fst kv) st) l (insts, b) =
  (rev (keys_code (bkeys l) b) ++ insts, zero_keys (bkeys l) b).
Proof.
  induction l as [|[k v] l IH]; intros insts b; [reflexivity|].
  cbn [bkeys map fst zero_keys keys_code fold_left]. rewrite flush_key_eq, IH, rev_app_distr, app_assoc. reflexivity.
Qed.

Lemma keys_code_sim : forall ctx sh sC ks b sI, Rp ctx sh (buff_val b) sC sI ->
  Pays ctx sh sC (keys_code ks b) (buff_val (zero_keys ks b)) sI.
Proof.
  intros ctx sh sC ks. induction ks as [|k ks IH]; intros b sI H; [apply Pays_nil; exact H|].
  cbn [keys_code]. eapply Pays_app; [apply (pay_sim _ _ _ _ _ _ _ H), buff_val_set|]. intros sI2 R2. apply IH, R2.
Qed.

Lemma zero_keys_zero : forall ks b k, List.In k ks \/ buff_val b k = 0 -> buff_val (zero_keys ks b) k = 0.
Proof.
  induction ks as [|k0 ks IH]; intros b k H; [destruct H as [[]|H]; exact H|].
  cbn [zero_keys fold_left]. apply IH. rewrite buff_val_set.
  destruct H as [[<-|H]|H]; [right; rewrite Z.eqb_refl; reflexivity|left; exact H|right].
  destruct (k0 =? k); [reflexivity|exact H].
Qed.

Lemma zero_keys_bkeys : forall ks b k, List.In k (bkeys (zero_keys ks b)) <-> List.In k ks \/ List.In k (bkeys b).
Proof.
  induction ks as [|k0 ks IH]; intros b k; cbn [zero_keys fold_left List.In]; [tauto|].
  fold (zero_keys ks (buff_set b k0 0)). rewrite IH, bkeys_set. tauto.
Qed.

Lemma zero_keys_sorted : forall ks b, bsorted b -> bsorted (zero_keys ks b).
Proof. induction ks as [|k0 ks IH]; intros b So; [exact So|]. apply IH, bsorted_set, So. Qed.

(** [flush_nonzero] pays everything *)
Definition nz (l : buff) : list instr := flat_map (fun kv => adds_of (fst kv) (snd kv)) l.

Lemma flush_nonzero_nz : forall (l : buff) insts, flush_nonzero l insts = rev (nz l) ++ insts.
Proof.
  induction l as [|[k v] l IH]; intros insts; [reflexivity|].
  unfold flush_nonzero. cbn [fold_left nz flat_map fst snd]. fold (flush_nonzero l (if v =? 0 then insts else i_add k v :: insts)).
  fold (nz l). rewrite IH, rev_app_distr, <- app_assoc. f_equal. unfold adds_of. destruct (v =? 0); reflexivity.
Qed.

Lemma bsorted_cons : forall k v (b : buff), bsorted ((k, v) :: b) ->
  bsorted b /\ (forall k2, buff_val ((k, v) :: b) k2 = if k =? k2 then v else buff_val b k2) /\
  ~ List.In k (bkeys b).
Proof.
  intros k v b So. unfold bsorted in So. cbn [bkeys map fst] in So. apply StronglySorted_inv in So. destruct So as [So F].
  split; [exact So|]. split; [intros k2; unfold buff_val; cbn [buff_get]; destruct (k =? k2); reflexivity|].
  intros HI. rewrite Forall_forall in F. specialize (F k HI). lia.
Qed.

Lemma nz_sim : forall ctx sh sC b pend sI, bsorted b -> (forall k, pend k = buff_val b k) ->
  Rp ctx sh pend sC sI -> Pays ctx sh sC (nz b) (fun _ => 0) sI.
Proof.
  intros ctx sh sC b. induction b as [|[k v] b IH]; intros pend sI So E H.
  - apply Pays_nil. eapply Rp_ext; [|exact H]. intros a. rewrite E. reflexivity.
  - destruct (bsorted_cons _ _ _ So) as (So' & EV & NI). cbn [nz flat_map fst snd]. fold (nz b).
    replace v with (pend k) by (rewrite E, EV, Z.eqb_refl; reflexivity).
    eapply Pays_app; [apply (pay_sim _ _ _ _ _ _ k H); reflexivity|]. intros sI1 R. refine (IH _ sI1 So' _ R).
    intros k2. rewrite E, EV. destruct (k =? k2) eqn:EK; [|reflexivity].
    apply Z.eqb_eq in EK. subst k2. symmetry. apply buff_val_notin, NI.
Qed.
End Relation.

(** how a frame evolves: keys only grow, [moved] only becomes true *)
Definition frame_le (F F' : frame) : Prop :=
  (f_moved F = true -> f_moved F' = true) /\ incl (bkeys (f_buff F)) (bkeys (f_buff F')).

Lemma frame_le_refl : forall F, frame_le F F.
Proof. intros F. split; [auto|apply incl_refl]. Qed.

Lemma frame_le_trans : forall F1 F2 F3, frame_le F1 F2 -> frame_le F2 F3 -> frame_le F1 F3.
Proof. intros F1 F2 F3 [M1 K1] [M2 K2]. split; [auto|eapply incl_tran; eassumption]. Qed.

Definition moves_of (sub : frame) (sh : Z) : bool := f_moved sub || negb (f_shift sub =? sh).
Definition sub_insts_of (sub : frame) : list instr := rev (flush_nonzero (f_buff sub) (f_insts sub)).
Definition the_loop (sub : frame) (sh : Z) : instr := ILoop sh (f_shift sub - sh) (sub_insts_of sub) false.

(** what the parent flushes before a loop that is kept as a loop, and the buffer it is left with:
    the keys the body touches, or everything if the loop moves the pointer, and the loop's cell *)
Definition settle_code (sub F : frame) : list instr :=
  let b1 := zero_keys (bkeys (f_buff sub)) (f_buff F) in
  keys_code (bkeys (f_buff sub)) (f_buff F) ++
  (if moves_of sub (f_shift F) then nz b1 else adds_of (f_shift F) (buff_val b1 (f_shift F))).

Definition settled_buff (sub F : frame) : buff :=
  let b1 := zero_keys (bkeys (f_buff sub)) (f_buff F) in
  buff_set (if moves_of sub (f_shift F) then zero_all b1 else b1) (f_shift F) 0.

Definition loop_frame (sub F : frame) : frame :=
  {| f_shift := f_shift F; f_moved := f_moved F || moves_of sub (f_shift F);
     f_insts := the_loop sub (f_shift F) :: rev (settle_code sub F) ++ f_insts F;
     f_buff := settled_buff sub F |}.

Definition clear_frame (F : frame) : frame :=
  {| f_shift := f_shift F; f_moved := f_moved F;
     f_insts := i_load (f_shift F) 0 :: f_insts F; f_buff := buff_set (f_buff F) (f_shift F) 0 |}.

Lemma close_loop_eq : forall w sub F, close_loop w sub F =
  if is_clear_loop w sub (sub_insts_of sub) (f_shift F) then clear_frame F else loop_frame sub F.
Proof.
  intros w sub F. unfold close_loop. fold (sub_insts_of sub).
  destruct (is_clear_loop w sub (sub_insts_of sub) (f_shift F)); [reflexivity|].
  rewrite flush_keys_eq. unfold loop_frame, settle_code, settled_buff, the_loop. fold (moves_of sub (f_shift F)).
  destruct (moves_of sub (f_shift F)).
  - rewrite flush_nonzero_nz, flush_key_eq, buff_val_zero_all. cbn [adds_of Z.eqb rev app].
    rewrite rev_app_distr, <- app_assoc. reflexivity.
  - rewrite flush_key_eq, rev_app_distr, <- app_assoc. reflexivity.
Qed.

Lemma settled_zero : forall sub F k,
  moves_of sub (f_shift F) = true \/ List.In k (f_shift F :: bkeys (f_buff sub)) ->
  buff_val (settled_buff sub F) k = 0.
Proof.
  intros sub F k H. unfold settled_buff. rewrite buff_val_set. destruct (f_shift F =? k) eqn:E; [reflexivity|].
  destruct H as [->|[H|H]]; [apply buff_val_zero_all|apply Z.eqb_neq in E; contradiction|].
  destruct (moves_of sub (f_shift F)); [apply buff_val_zero_all|apply zero_keys_zero; left; exact H].
Qed.

Lemma settled_bkeys : forall sub F k, List.In k (bkeys (settled_buff sub F)) <->
  f_shift F = k \/ List.In k (bkeys (f_buff sub)) \/ List.In k (bkeys (f_buff F)).
Proof.
  intros. unfold settled_buff. rewrite bkeys_set.
  destruct (moves_of sub (f_shift F)); rewrite ?bkeys_zero_all, zero_keys_bkeys; reflexivity.
Qed.

Lemma settled_sorted : forall sub F, bsorted (f_buff F) -> bsorted (settled_buff sub F).
Proof.
  intros sub F So. apply bsorted_set. destruct (moves_of sub (f_shift F)).
  - unfold bsorted. rewrite bkeys_zero_all. apply zero_keys_sorted, So.
  - apply zero_keys_sorted, So.
Qed.

Lemma clear_frame_le : forall F, frame_le F (clear_frame F).
Proof.
  intros F. split; [auto|]. intros k H. apply bkeys_set. right. exact H.
Qed.

Lemma loop_frame_le : forall sub F, frame_le F (loop_frame sub F).
Proof.
  intros sub F. split.
  - cbn [loop_frame f_moved]. intros ->. reflexivity.
  - intros k H. apply settled_bkeys. right. right. exact H.
Qed.

Lemma comp_cmd_le : forall w c F, frame_le F (comp_cmd w c F).
Proof.
  intros w c F.
  assert (K : forall v, incl (bkeys (f_buff F)) (bkeys (buff_set (f_buff F) (f_shift F) v)))
    by (intros v k H; apply bkeys_set; right; exact H).
  destruct c as [| | | | | |body]; cbn [comp_cmd].
  - split; [auto|apply K].
  - split; [auto|apply K].
  - split; [auto|apply incl_refl].
  - split; [auto|apply incl_refl].
  - rewrite flush_key_eq. split; [auto|apply K].
  - split; [auto|apply K].
  - rewrite close_loop_eq.
    destruct (is_clear_loop w _ _ (f_shift F)); [apply clear_frame_le|apply loop_frame_le].
Qed.

Lemma comp_le : forall w p F, frame_le F (comp w p F).
Proof.
  intros w p. induction p as [|c p IH]; intros F; [apply frame_le_refl|].
  rewrite comp_cons. eapply frame_le_trans; [apply comp_cmd_le|apply IH].
Qed.

(** the code a command appends to its frame, in execution order *)
Definition code_cmd (w : Z) (c : cmd) (F : frame) : list instr :=
  match c with
  | Out => adds_of (f_shift F) (buff_val (f_buff F) (f_shift F)) ++ [IOut (f_shift F)]
  | In => [IIn (f_shift F)]
  | Loop body =>
      let sub := comp w body (frame0 (f_shift F)) in
      if is_clear_loop w sub (sub_insts_of sub) (f_shift F) then [i_load (f_shift F) 0]
      else settle_code sub F ++ [the_loop sub (f_shift F)]
  | _ => []
  end.

Fixpoint code (w : Z) (p : list cmd) (F : frame) : list instr :=
  match p with [] => [] | c :: p' => code_cmd w c F ++ code w p' (comp_cmd w c F) end.

Lemma comp_cmd_insts : forall w c F, f_insts (comp_cmd w c F) = rev (code_cmd w c F) ++ f_insts F.
Proof.
  intros w c F. destruct c as [| | | | | |body]; try reflexivity.
  - cbn [comp_cmd code_cmd]. rewrite flush_key_eq, rev_app_distr. reflexivity.
  - rewrite comp_loop, close_loop_eq. cbn [code_cmd].
    destruct (is_clear_loop w _ _ (f_shift F)); [reflexivity|]. cbn [loop_frame f_insts]. rewrite rev_app_distr. reflexivity.
Qed.

Lemma comp_insts : forall w p F, f_insts (comp w p F) = rev (code w p F) ++ f_insts F.
Proof.
  intros w p. induction p as [|c p IH]; intros F; [reflexivity|].
  rewrite comp_cons, IH, comp_cmd_insts. cbn [code]. rewrite rev_app_distr, app_assoc. reflexivity.
Qed.

(** what [is_clear_loop] accepts: a body whose net shift is 0 and whose code is one addition of
    an odd constant to the loop's cell *)
Lemma clear_loop_shape : forall w sub insts sh, is_clear_loop w sub insts sh = true ->
  f_shift sub = sh /\ exists inc, insts = [i_add sh inc] /\ Z.odd inc = true.
Proof.
  intros w sub insts sh H. unfold is_clear_loop in H.
  apply andb_prop in H. destruct H as [H H3]. apply andb_prop in H. destruct H as [_ H2].
  apply Z.eqb_eq in H2. split; [exact H2|].
  (* [insts] is one [ICalc] of one assignment [var := ex] *)
  destruct insts as [|[| |[|[var ex] [|]]| |] [|]]; try discriminate.
  apply andb_prop in H3. destruct H3 as [Hv Hc]. apply Z.eqb_eq in Hv. subst var.
  (* [e_const_inc_of] accepts exactly [[(c0, []); (1, [sh])]], giving [c0], and the one-part form
     [[(1, [sh])]], giving 0, which is even *)
  destruct ex as [|[c0 [|x0 [|]]] [|[c1 [|x1 [|]]] [|]]]; cbn [e_const_inc_of] in Hc; try discriminate Hc.
  - destruct ((c1 =? 1) && (x1 =? sh)) eqn:E; [|discriminate Hc]. apply andb_prop in E. destruct E as [E1 E2].
    apply Z.eqb_eq in E1, E2. subst c1 x1. exists c0. split; [reflexivity|]. rewrite <- is_odd_spec. exact Hc.
  - destruct ((c0 =? 1) && (x0 =? sh)); discriminate Hc.
Qed.

Section Main.
Variable w : Z.
Variable e : env.
Hypothesis Hw : 0 <= w.

(** what the enclosing frames still owe ([ctx]) must not concern any cell the code touches:
    the cells at the offsets [ks] from [base], or any cell at all once the pointer has moved *)
Definition quiet (ctx : Z -> Z) (mv : bool) (ks : list Z) (base : Z) : Prop :=
  if mv then forall a, ctx a = 0 else forall k, List.In k ks -> ctx (base + k) = 0.

Definition fquiet (ctx : Z -> Z) (F : frame) (base : Z) : Prop :=
  quiet ctx (f_moved F) (bkeys (f_buff F)) base.

Lemma quiet_weaken : forall ctx mv ks base mv' ks' base', quiet ctx mv ks base ->
  (mv' = true -> mv = true) -> incl ks' ks -> (mv = false -> base' = base) -> quiet ctx mv' ks' base'.
Proof.
  unfold quiet. intros ctx mv ks base mv' ks' base' Q M K B.
  destruct mv; [destruct mv'; intros; apply Q|].
  destruct mv'; [discriminate (M eq_refl)|]. intros k Hk. rewrite (B eq_refl). apply Q, K, Hk.
Qed.

Lemma quiet_at : forall ctx mv ks base base' k, quiet ctx mv ks base -> (mv = false -> base' = base) ->
  List.In k ks -> ctx (base' + k) = 0.
Proof.
  unfold quiet. intros ctx mv ks base base' k Q E Hk. destruct mv; [apply Q|rewrite (E eq_refl); apply Q, Hk].
Qed.

Lemma quiet_zero : forall mv ks base, quiet (fun _ => 0) mv ks base.
Proof. intros. unfold quiet. destruct mv; reflexivity. Qed.

(** nothing is owed from outside to a cell that has a key in the frame's buffer *)
Lemma fquiet_set : forall ctx F base b k v, fquiet ctx F base -> f_buff F = buff_set b k v -> ctx (base + k) = 0.
Proof.
  intros ctx F base b k v Q E. apply (quiet_at _ _ _ _ _ _ Q (fun _ => eq_refl)). rewrite E.
  apply bkeys_set. left. reflexivity.
Qed.

(** the frame's relation holds again, and the IR pointer is where it was ([p0]) unless the frame
    has moved it *)
Definition kept (ctx : Z -> Z) (F' : frame) (p0 : Z) (sC' : bfst) (sI' : irst) : Prop :=
  Rf w ctx F' sC' sI' /\ (f_moved F' = false -> ir_ptr sI' = p0).

Definition same_io (sC : bfst) (sI : irst) : Prop := io sC = ir_io sI.

(** after a first command that left the IR pointer at [ir_ptr sI1]: the rest may be treated
    relative to that pointer, since it differs from [p0] only if the frame has moved it *)
Lemma kept_step : forall ctx F1 F2 p0 s1 sI1, frame_le F1 F2 -> fquiet ctx F2 p0 -> kept ctx F1 p0 s1 sI1 ->
  fquiet ctx F2 (ir_ptr sI1) /\ forall x y, kept ctx F2 (ir_ptr sI1) x y -> kept ctx F2 p0 x y.
Proof.
  intros ctx F1 F2 p0 s1 sI1 LT Q [_ P1].
  assert (PE : f_moved F2 = false -> ir_ptr sI1 = p0).
  { intros M. apply P1. destruct (f_moved F1) eqn:M1; [|reflexivity]. rewrite (proj1 LT M1) in M. discriminate. }
  split; [eapply quiet_weaken; [exact Q|auto|apply incl_refl|exact PE]|].
  intros x y [A Bp]. split; [exact A|]. intros M. rewrite (Bp M). apply PE, M.
Qed.

Lemma Rf_add : forall ctx F sC sI d, Rf w ctx F sC sI ->
  Rf w ctx (with_insts_buff F (f_insts F) (buff_set (f_buff F) (f_shift F) (wadd w (buff_val (f_buff F) (f_shift F)) d)))
     (set_cur sC (wadd w (cur sC) d)) sI.
Proof.
  intros ctx F sC sI d [(A & B & C & D) So]. split; [|apply bsorted_set, So].
  unfold set_cur, cur. split; [exact A|split; [exact B|split; [|exact D]]].
  cbn [with_insts_buff f_shift f_buff tape ptr io]. set (sh := f_shift F) in *. set (pend := buff_val (f_buff F)) in *.
  intros a. rewrite tget_tset, buff_val_set, A. destruct (ir_ptr sI + sh =? a) eqn:E.
  - apply Z.eqb_eq in E. subst a. rewrite Z.add_simpl_l, Z.eqb_refl, C, !wadd_norm, Z.add_simpl_l. fold pend.
    rewrite (norm_norm_add_l w Hw), (Z.add_shuffle0 _ (norm w _)), (norm_norm_add_r w Hw). f_equal. lia.
  - apply Z.eqb_neq in E. destruct (sh =? a - ir_ptr sI) eqn:E2; [apply Z.eqb_eq in E2; lia|]. apply C.
Qed.

Lemma Rf_move : forall ctx F sC sI d, Rf w ctx F sC sI -> Rf w ctx (with_shift F (f_shift F + d)) (move sC d) sI.
Proof.
  intros ctx F sC sI d [(A & B & C & D) So]. split; [|exact So].
  split; [cbn [with_shift f_shift move ptr]; lia|split; [exact B|split; [exact C|exact D]]].
Qed.

Lemma Rp_set_io : forall ctx sh pend sC sI i, Rp w ctx sh pend sC sI -> Rp w ctx sh pend (set_io sC i) (ir_set_io sI i).
Proof. intros ctx sh pend sC sI i (A & B & C & D). split; [exact A|split; [reflexivity|split; [exact C|exact D]]]. Qed.

(** the cell under the canonical pointer, seen from the IR side, once nothing is owed to it *)
Lemma Rp_cur : forall ctx sh pend sC sI, Rp w ctx sh pend sC sI -> pend sh = 0 -> ctx (ir_ptr sI + sh) = 0 ->
  cur sC = ir_read sI sh.
Proof.
  intros ctx sh pend sC sI (A & B & C & D) P0 C0. unfold cur, ir_read. rewrite A, C.
  rewrite Z.add_simpl_l, P0, C0, !Z.add_0_r. apply norm_small, D.
Qed.

(** [s1] is [s] with [v] in the current cell *)
Definition cell_set (s s1 : bfst) (v : Z) : Prop :=
  ptr s1 = ptr s /\ io s1 = io s /\ (forall a, a <> ptr s -> tget (tape s1) a = tget (tape s) a) /\ cur s1 = v.

Lemma cell_set_trans : forall s s1 s2 v1 v2, cell_set s s1 v1 -> cell_set s1 s2 v2 -> cell_set s s2 v2.
Proof.
  intros s s1 s2 v1 v2 (P1 & I1 & T1 & _) (P2 & I2 & T2 & C2).
  split; [congruence|split; [congruence|split; [|exact C2]]].
  intros a Na. rewrite T2 by congruence. apply T1, Na.
Qed.

(** storing a normalised value [v] in the current cell on both sides *)
Lemma Rf_store : forall ctx F sC sI s1 v, Rf w ctx F sC sI -> ctx (ir_ptr sI + f_shift F) = 0 ->
  0 <= v < 2 ^ w -> cell_set sC s1 v ->
  Rf w ctx (with_insts_buff F (f_insts F) (buff_set (f_buff F) (f_shift F) 0)) s1 (ir_write sI (f_shift F) v).
Proof.
  intros ctx F sC sI s1 v [(A & B & C & D) So] C0 V (P1 & I1 & T1 & Z1). split; [|apply bsorted_set, So].
  cbn [with_insts_buff f_shift f_buff]. set (sh := f_shift F) in *.
  unfold ir_write, Rp. cbn [ir_ptr ir_tape ir_io]. split; [lia|split; [congruence|split]].
  - intros a. rewrite tget_tset, buff_val_set. destruct (ir_ptr sI + sh =? a) eqn:E.
    + apply Z.eqb_eq in E. subst a. rewrite Z.add_simpl_l, Z.eqb_refl, C0.
      unfold cur in Z1. rewrite P1, A in Z1. rewrite Z1, !Z.add_0_r. symmetry. apply norm_small, V.
    + apply Z.eqb_neq in E. destruct (sh =? a - ir_ptr sI) eqn:E2; [apply Z.eqb_eq in E2; lia|].
      rewrite T1 by lia. apply C.
  - intros a. rewrite tget_tset. destruct (ir_ptr sI + sh =? a); [exact V|apply D].
Qed.

Lemma silent_sim : forall ctx F' sI s1, Rf w ctx F' s1 sI ->
  exists o', runs w e [] sI o' /\ alike (kept ctx F' (ir_ptr sI)) same_io (Done s1) o'.
Proof. intros ctx F' sI s1 R. exists (Done sI). split; [apply runs_nil|]. split; [exact R|reflexivity]. Qed.

Lemma simple_sim : forall ctx c F sC sI, simple_cmd c -> Rf w ctx F sC sI ->
  fquiet ctx (comp_cmd w c F) (ir_ptr sI) ->
  exists o', runs w e (code_cmd w c F) sI o' /\
    alike (kept ctx (comp_cmd w c F) (ir_ptr sI)) same_io (simple_out w e c sC) o'.
Proof.
  intros ctx c F sC sI NL [H So] Q.
  unfold simple_out. destruct c as [| | | | | |body]; [| | | | | |contradiction];
    cbn [comp_cmd bf_simple code_cmd] in *.
  - (* Inc *) apply silent_sim, Rf_add. split; assumption.
  - (* Dec *) apply silent_sim, Rf_add. split; assumption.
  - (* Left *) apply silent_sim, (Rf_move ctx F sC sI (-1)). split; assumption.
  - (* Right *) apply silent_sim, Rf_move. split; assumption.
  - (* Out *) rewrite flush_key_eq in *. cbn [with_insts_buff f_insts f_shift f_buff fst snd] in *.
    destruct (pay_sim w e Hw ctx (f_shift F) sC _ _ sI (f_shift F) H (buff_val_set (f_buff F) (f_shift F) 0))
      as (sI' & X & P & R').
    assert (CU : cur sC = ir_read sI' (f_shift F)).
    { eapply Rp_cur; [exact R'|rewrite buff_val_set, Z.eqb_refl; reflexivity|rewrite P; apply (fquiet_set _ _ _ _ _ _ Q eq_refl)]. }
    assert (IOE : io sC = ir_io sI') by (destruct R' as (_ & B & _); exact B).
    eexists. split; [apply (runs_after w e _ _ _ _ _ X), runs_out|]. unfold io_outcome. rewrite CU, IOE.
    destruct (do_output e (ir_io sI') (into_u8 w (ir_read sI' (f_shift F)))) as [u i|i]; [|reflexivity].
    split; [|intros _; exact P]. split; [apply Rp_set_io, R'|apply bsorted_set, So].
  - (* In *) assert (IOE : io sC = ir_io sI) by (destruct H as (_ & B & _); exact B).
    eexists. split; [apply runs_in|]. unfold io_outcome. rewrite IOE.
    destruct (do_input e (ir_io sI)) as [b i|i]; [|reflexivity]. split; [|reflexivity].
    apply (Rf_store ctx F (set_io sC i) (ir_set_io sI i)).
    { split; [apply Rp_set_io, H|exact So]. }
    { apply (fquiet_set _ _ _ _ _ _ Q eq_refl). }
    { apply mod_pow2_range, Hw. }
    unfold cell_set, cur, set_io, set_cur. cbn [tape ptr io]. rewrite tget_tset, Z.eqb_refl.
    split; [reflexivity|split; [reflexivity|split; [|reflexivity]]].
    intros a Na. rewrite tget_tset. destruct (ptr sC =? a) eqn:E; [apply Z.eqb_eq in E; congruence|reflexivity].
Qed.

Definition code_sim (p : list cmd) : Prop :=
  forall ctx F sC sI, Rf w ctx F sC sI -> fquiet ctx (comp w p F) (ir_ptr sI) ->
  bisim (cruns w e p sC) (runs w e (code w p F) sI) (kept ctx (comp w p F) (ir_ptr sI)) same_io.

(** the frame owes nothing, and the IR pointer is at [p0] unless the code moves it ([mv]) *)
Definition flushed (ctx : Z -> Z) (sh : Z) (mv : bool) (p0 : Z) (sC : bfst) (sI : irst) : Prop :=
  Rp w ctx sh (fun _ => 0) sC sI /\ (mv = false -> ir_ptr sI = p0).

(** a block (a loop body, or the whole program): the code of a command list, then the flush of
    what is still owed *)
Lemma block_sim : forall p, code_sim p -> forall ctx sh sC sI, let sub := comp w p (frame0 sh) in
  Rp w ctx sh (fun _ => 0) sC sI -> fquiet ctx sub (ir_ptr sI) ->
  bisim (cruns w e p sC) (runs w e (sub_insts_of sub) sI) (flushed ctx (f_shift sub) (f_moved sub) (ir_ptr sI)) same_io.
Proof.
  intros p HS ctx sh sC sI sub H Q.
  assert (EC : sub_insts_of sub = code w p (frame0 sh) ++ nz (f_buff sub)).
  { unfold sub_insts_of. rewrite flush_nonzero_nz. unfold sub at 2.
    rewrite comp_insts, app_nil_r, rev_app_distr, !rev_involutive. reflexivity. }
  (* both sets of runs as chains, then [bisim_chain] *)
  eapply bisim_ext; [intros a; symmetry; apply chain_ret|intros b; rewrite EC; apply runs_app|intros x y K; exact K|].
  eapply bisim_chain; [apply (HS ctx (frame0 sh) sC sI (conj H (SSorted_nil Z.lt)) Q)|].
  intros s1 sI1 [[R1 S1] P1]. destruct (nz_sim w e Hw ctx _ s1 _ _ sI1 S1 (fun _ => eq_refl) R1) as (sI2 & X & P2 & R2).
  apply (bisim_det _ _ _ _ (Done s1) (Done sI2)); [congruence|apply runs_det|reflexivity|exact X|].
  split; [exact R2|]. intros M. rewrite P2. apply P1, M.
Qed.

(** While a loop runs nothing is owed by its own frame at the loop test, and what the enclosing
    frames owe concerns no cell the loop touches; [p0] is where the IR pointer was at its start. *)
Lemma loop_sim : forall body, code_sim body -> forall ctx sh sC sI p0, let sub := comp w body (frame0 sh) in
  quiet ctx (moves_of sub sh) (sh :: bkeys (f_buff sub)) p0 -> flushed ctx sh (moves_of sub sh) p0 sC sI ->
  bisim (iter (fun s => cur s =? 0) (cruns w e body) (fun s => s) sC) (runs w e [the_loop sub sh] sI)
        (flushed ctx sh (moves_of sub sh) p0) same_io.
Proof.
  intros body HS ctx sh sC sI p0 sub Q LI.
  eapply bisim_ext; [reflexivity|intros b; apply runs_loop|intros x y K; exact K|].
  apply bisim_iter; [| |exact LI]; clear sC sI LI; intros sC sI (H & P).
  - (* the two tests agree *)
    rewrite (Rp_cur ctx sh _ sC sI H eq_refl); [reflexivity|]. apply (quiet_at _ _ _ _ _ _ Q P). left. reflexivity.
  - (* one iteration, and the move by the body's net shift *)
    eapply bisim_ext; [reflexivity|reflexivity| |apply (block_sim body HS ctx sh sC sI H)].
    + intros s1 s2 [(A & B & C & D) P2]. fold sub in A, P2.
      assert (PM : moves_of sub sh = false -> ir_ptr (ir_move s2 (f_shift sub - sh)) = p0).
      { unfold moves_of. intros M. rewrite <- (P M). apply orb_false_iff in M. destruct M as [M1 M2].
        apply negb_false_iff, Z.eqb_eq in M2. cbn [ir_move ir_ptr]. rewrite (P2 M1), M2. lia. }
      split; [|exact PM].
      split; [cbn [ir_move ir_ptr]; lia|]. split; [exact B|]. split; [exact C|exact D].
    + eapply quiet_weaken; [exact Q| |apply incl_tl, incl_refl|exact P].
      intros M. apply orb_true_iff. left. exact M.
Qed.

Lemma settle_sim : forall ctx sub F sC sI, Rf w ctx F sC sI ->
  Pays w e ctx (f_shift F) sC (settle_code sub F) (buff_val (settled_buff sub F)) sI.
Proof.
  intros ctx sub F sC sI [H So]. unfold settle_code, settled_buff.
  eapply Pays_app; [apply (keys_code_sim w e Hw), H|]. intros sI2 R2.
  destruct (moves_of sub (f_shift F)); [|apply (pay_sim w e Hw _ _ _ _ _ _ _ R2), buff_val_set].
  destruct (nz_sim w e Hw ctx _ sC _ _ sI2 (zero_keys_sorted _ _ So) (fun _ => eq_refl) R2) as (sI3 & X & P3 & R3).
  exists sI3. split; [exact X|split; [exact P3|]]. eapply Rp_ext; [|exact R3].
  intros a. rewrite buff_val_set, buff_val_zero_all. destruct (f_shift F =? _); reflexivity.
Qed.

(** the parent's side of a loop that is kept: flush ([settle_code]), run the loop under what the
    parent still owes ([ctxQ]), and take the buffer up again afterwards *)
Lemma loop_enter : forall ctx sub F sC sI, Rf w ctx F sC sI -> fquiet ctx (loop_frame sub F) (ir_ptr sI) ->
  exists sI3 ctxQ, runs w e (settle_code sub F) sI (Done sI3) /\
    quiet ctxQ (moves_of sub (f_shift F)) (f_shift F :: bkeys (f_buff sub)) (ir_ptr sI3) /\
    flushed ctxQ (f_shift F) (moves_of sub (f_shift F)) (ir_ptr sI3) sC sI3 /\
    forall s1 sI4, flushed ctxQ (f_shift F) (moves_of sub (f_shift F)) (ir_ptr sI3) s1 sI4 ->
      kept ctx (loop_frame sub F) (ir_ptr sI) s1 sI4.
Proof.
  intros ctx sub F sC sI HR Q. destruct (settle_sim ctx sub F sC sI HR) as (sI3 & X3 & P3 & R3).
  destruct HR as [_ So]. unfold fquiet in Q. cbn [loop_frame f_moved f_buff] in Q.
  exists sI3, (fun a => buff_val (settled_buff sub F) (a - ir_ptr sI3) + ctx a).
  split; [exact X3|]. split; [|split; [split; [|reflexivity]|]].
  - unfold quiet in *. destruct (moves_of sub (f_shift F)) eqn:M.
    + rewrite orb_true_r in Q. intros a. rewrite Q, settled_zero by (left; exact M). reflexivity.
    + intros k Hk. rewrite Z.add_simpl_l, P3, settled_zero by (right; exact Hk).
      apply (quiet_at _ _ _ _ _ k Q (fun _ => eq_refl)), settled_bkeys.
      destruct Hk as [<-|Hk]; [left; reflexivity|right; left; exact Hk].
  - eapply Rp_ext; [|exact R3]. reflexivity.
  - intros s1 sI4 (R4 & P4). split; [split|]; cbn [loop_frame f_shift f_buff f_moved].
    + eapply Rp_ext; [|exact R4]. intros a. cbv beta. rewrite Z.add_0_l. f_equal.
      destruct (moves_of sub (f_shift F)) eqn:M; [|rewrite (P4 eq_refl); reflexivity].
      rewrite !settled_zero by (left; exact M). reflexivity.
    + apply settled_sorted, So.
    + intros M. apply orb_false_iff in M. rewrite (P4 (proj2 M)). exact P3.
Qed.

(** adding an odd [inc] often enough reaches 0: [n := (- v * u) mod 2^w] times, where [u] is the
    inverse of [inc] modulo [2^w] that [odd_inverse] gives *)
Lemma reach_zero : forall inc v, Z.odd inc = true -> exists n, (v + Z.of_nat n * inc) mod 2 ^ w = 0.
Proof.
  intros inc v Hodd. pose proof (pow2_pos w Hw) as MP.
  destruct (Z.eq_dec w 0) as [->|W0]; [exists O; apply Z.mod_1_r|].
  pose proof (odd_inverse w inc ltac:(lia) Hodd) as IU. set (u := inc ^ (2 ^ (w - 1) - 1)) in *.
  exists (Z.to_nat ((- v * u) mod 2 ^ w)). rewrite Z2Nat.id by (apply Z.mod_pos_bound, MP).
  rewrite Z.add_mod, Z.mul_mod_idemp_l by lia. replace (- v * u * inc) with (- v * (inc * u)) by ring.
  rewrite <- Z.mul_mod_idemp_r, IU, <- Z.add_mod by lia. replace (v + - v * 1) with 0 by ring. apply Z.mod_0_l. lia.
Qed.

(** if the body adds [inc] to the current cell and changes nothing else, the loop ends as soon as
    the cell has become 0, which it does *)
Lemma clear_terminates : forall body inc, Z.odd inc = true ->
  (forall s, cnormal w s -> exists s1, cruns w e body s (Done s1) /\
     cell_set s s1 (norm w (cur s + inc)) /\ cnormal w s1) ->
  forall s, cnormal w s ->
  exists s', iter (fun s => cur s =? 0) (cruns w e body) (fun s => s) s (Done s') /\ cell_set s s' 0.
Proof.
  intros body inc Hodd BodyEff s N. destruct (reach_zero inc (cur s) Hodd) as [n Hn]. revert s N Hn.
  induction n as [|n IH]; intros s N Hn; destruct (cur s =? 0) eqn:C0.
  (* at 0 already *)
  1, 3: exists s; split; [apply iter_exit; exact C0|]; repeat split; apply Z.eqb_eq; exact C0.
  - rewrite Z.add_0_r, Z.mod_small in Hn by apply N. apply Z.eqb_neq in C0. contradiction.
  - destruct (BodyEff s N) as (s1 & B & CS & N1).
    destruct (IH s1 N1) as (s' & L & CS').
    { destruct CS as (_ & _ & _ & ->). unfold norm. rewrite Z.add_mod_idemp_l by (pose proof (pow2_pos w Hw); lia).
      rewrite <- Hn. f_equal. lia. }
    exists s'. split; [eapply iter_next; eassumption|eapply cell_set_trans; eassumption].
Qed.

(** a canonical state as an IR state whose pointer sits [sh] cells to the left, related to it with
    nothing owed: a state from which to run a loop body's code ([clear_sim]) *)
Definition synth (sC : bfst) (sh : Z) : irst :=
  {| ir_tape := tape sC; ir_ptr := ptr sC - sh; ir_io := io sC; ir_budget := 0 |}.

Lemma synth_rel : forall sC sh, cnormal w sC -> Rp w (fun _ => 0) sh (fun _ => 0) sC (synth sC sh).
Proof.
  intros sC sh N. unfold synth, Rp. cbn [ir_ptr ir_tape ir_io]. split; [lia|split; [reflexivity|split; [|exact N]]].
  intros a. rewrite !Z.add_0_r. symmetry. apply norm_small, N.
Qed.

(** A loop that [is_clear_loop] accepts.  Its body's code adds an odd [inc] to the loop's cell from
    any IR state; by [block_sim] backwards (from [synth s sh]) the body does the same from any
    canonical state [s]; so the loop ends with 0 in that cell ([clear_terminates]), which is what
    the emitted [i_load] stores. *)
Lemma clear_sim : forall body, code_sim body -> forall ctx F sC sI,
  let sub := comp w body (frame0 (f_shift F)) in
  is_clear_loop w sub (sub_insts_of sub) (f_shift F) = true ->
  Rf w ctx F sC sI -> fquiet ctx (clear_frame F) (ir_ptr sI) ->
  bisim (iter (fun s => cur s =? 0) (cruns w e body) (fun s => s) sC) (runs w e [i_load (f_shift F) 0] sI)
        (kept ctx (clear_frame F) (ir_ptr sI)) same_io.
Proof.
  intros body HS ctx F sC sI sub CL R Q. set (sh := f_shift F) in *.
  destruct (clear_loop_shape w sub _ sh CL) as (SH & inc & EI & OD).
  assert (EFF : forall s, cnormal w s -> exists s1, cruns w e body s (Done s1) /\
            cell_set s s1 (norm w (cur s + inc)) /\ cnormal w s1).
  { intros s N.
    assert (X : runs w e (sub_insts_of sub) (synth s sh) (Done (ir_calc w [(sh, [(inc, []); (1, [sh])])] (synth s sh))))
      by (rewrite EI; apply runs_calc).
    destruct (proj2 (block_sim body HS (fun _ => 0) sh s _ (synth_rel s sh N) (quiet_zero _ _ _)) _ X) as (o & B & K).
    destruct o as [s1|s1|s1|q s1|s1]; try contradiction. destruct K as [R1 _]. fold sub in R1. rewrite SH in R1.
    exists s1. split; [exact B|]. split; [|exact (Rp_cnorm w Hw _ _ _ _ _ R1)].
    destruct R1 as (A1 & B1 & C1 & D1). rewrite ir_calc_one, (eval_i_add w Hw) in *.
    unfold synth, ir_write, ir_read in *. cbn [ir_ptr ir_tape ir_io] in *.
    assert (EP : ptr s - sh + sh = ptr s) by lia. rewrite EP in *.
    split; [lia|split; [exact B1|split]].
    - intros a Na. rewrite C1, tget_tset. destruct (ptr s =? a) eqn:E; [apply Z.eqb_eq in E; congruence|].
      rewrite !Z.add_0_r. apply norm_small, N.
    - unfold cur. rewrite C1, A1, tget_tset, Z.eqb_refl, !Z.add_0_r, norm_small by apply mod_pow2_range, Hw.
      f_equal. lia. }
  pose proof (Rp_cnorm w Hw _ _ _ _ _ (proj1 R)) as NC.
  destruct (clear_terminates body inc OD EFF sC NC) as (s' & L & CS).
  apply (bisim_det _ _ _ _ (Done s') (Done (ir_calc w [(sh, e_val 0)] sI))).
  - intros a1 a2 L1 L2. apply (iter_det _ _ _ (cruns_det w e body) _ _ L1 _ L2).
  - apply runs_det.
  - exact L.
  - apply runs_calc.
  - split; [|reflexivity].
    destruct (Rf_store ctx F sC sI s' 0 R) as [R1 S1]; [|pose proof (pow2_pos w Hw); lia|exact CS|split; assumption].
    apply (fquiet_set _ _ _ _ _ _ Q eq_refl).
Qed.

Lemma sim_cons : forall c rest (C1 : bfst -> outcome bfst -> Prop),
  (forall s o, cruns w e (c :: rest) s o <-> chain (C1 s) (cruns w e rest) o) ->
  (forall ctx F sC sI, Rf w ctx F sC sI -> fquiet ctx (comp_cmd w c F) (ir_ptr sI) ->
     bisim (C1 sC) (runs w e (code_cmd w c F) sI) (kept ctx (comp_cmd w c F) (ir_ptr sI)) same_io) ->
  code_sim rest -> code_sim (c :: rest).
Proof.
  intros c rest C1 EQ H1 HR ctx F sC sI R Q. rewrite comp_cons in *.
  pose proof (comp_le w rest (comp_cmd w c F)) as LT.
  eapply bisim_ext; [intros a; apply EQ|intros b; apply runs_app|intros x y K; exact K|].
  eapply bisim_chain; [apply (H1 ctx F sC sI R), (quiet_weaken _ _ _ _ _ _ _ Q (proj1 LT) (proj2 LT) (fun _ => eq_refl))|].
  intros s1 sI1 K1. destruct (kept_step ctx _ _ _ _ _ LT Q K1) as [Q1 EX].
  eapply bisim_ext; [reflexivity|reflexivity|exact EX|apply (HR ctx _ s1 sI1 (proj1 K1) Q1)].
Qed.

Theorem sim_all : forall p, code_sim p.
Proof.
  induction p as [|c rest NL IH|body rest IHb IH] using prog_ind.
  - intros ctx F sC sI R Q.
    apply (bisim_det _ _ _ _ (Done sC) (Done sI)); [apply cruns_det|apply runs_det|apply cruns_nil|apply runs_nil|].
    split; [exact R|reflexivity].
  - apply (sim_cons c rest (fun s => eq (simple_out w e c s))); [intros s o; apply cruns_simple, NL| |exact IH].
    intros ctx F sC sI R Q. destruct (simple_sim ctx c F sC sI NL R Q) as (o' & X & K).
    apply (bisim_det _ _ _ _ (simple_out w e c sC) o'); [congruence|apply runs_det|reflexivity|exact X|exact K].
  - apply (sim_cons (Loop body) rest (iter (fun s => cur s =? 0) (cruns w e body) (fun s => s)));
      [intros s o; apply cruns_loop| |exact IH].
    intros ctx F sC sI R Q. cbn [code_cmd]. rewrite comp_loop, close_loop_eq in *.
    destruct (is_clear_loop w _ _ (f_shift F)) eqn:CL; [apply (clear_sim body IHb ctx F sC sI CL R Q)|].
    destruct (loop_enter ctx _ F sC sI R Q) as (sI3 & ctxQ & X3 & QQ & LI & EX).
    eapply bisim_ext; [reflexivity|intros b; apply (runs_after w e _ _ _ _ _ X3)|exact EX|].
    apply (loop_sim body IHb ctxQ (f_shift F) sC sI3 _ QQ LI).
Qed.
End Main.

(** [alike same_io same_io], written out *)
Definition same_events (o : outcome bfst) (o' : outcome irst) : Prop :=
  match o, o' with
  | Done s, Done s' => io s = ir_io s'
  | Stopped s, Stopped s' => io s = ir_io s'
  | _, _ => False
  end.

Lemma init_rel : forall w, 0 <= w -> Rp w (fun _ => 0) 0 (fun _ => 0) bf0 (ir0 0).
Proof.
  intros w Hw. change (ir0 0) with (synth bf0 0). apply synth_rel. intros a. cbn [bf0 tape]. rewrite tget_empty.
  pose proof (pow2_pos w Hw). lia.
Qed.

Theorem level0_sim : forall w e p, 0 <= w ->
  bisim (cruns w e p bf0) (runs w e (sub_insts_of (comp w p (frame0 0))) (ir0 0))
        same_io same_io.
Proof.
  intros w e p Hw. eapply bisim_ext; [reflexivity|reflexivity|
    |apply (block_sim w e Hw p (sim_all w e Hw p) (fun _ => 0) 0 bf0 (ir0 0) (init_rel w Hw) (quiet_zero _ _ _))].
  intros s s' [(_ & B & _) _]. exact B.
Qed.

(** C01 at level 0, and C08 there: [terminal] holds of [Done] and of [Stopped] (an I/O failure) *)
Theorem level0_correct : forall w e src p f o, 0 <= w ->
  ast_of_source src = Some p -> bf_exec w e f p bf0 = o -> terminal o ->
  exists blk fi o', parse w src = POk blk /\ ir_run w e false 0 fi blk = o' /\ same_events o o'.
Proof.
  intros w e src p f o Hw HA HX T. rewrite (parse_comp w src p HA). eexists. unfold ir_run. cbn [snd].
  destruct (proj1 (level0_sim w e p Hw) o (conj T (ex_intro _ f HX))) as (o' & [_ [fi X]] & M).
  exists fi, o'. split; [reflexivity|]. split; [exact X|exact M].
Qed.

Corollary level0_events : forall w e src p f o, 0 <= w ->
  ast_of_source src = Some p -> bf_exec w e f p bf0 = o -> terminal o ->
  exists blk fi, parse w src = POk blk /\
    events ir_io (ir_run w e false 0 fi blk) = events io o /\
    finished_flag (ir_run w e false 0 fi blk) = true.
Proof.
  intros w e src p f o Hw HA HX T.
  destruct (level0_correct w e src p f o Hw HA HX T) as (blk & fi & o' & HP & HR & SE).
  exists blk, fi. split; [exact HP|]. rewrite HR. unfold same_events in SE. unfold events.
  destruct o as [s|s|s|q s|s]; try contradiction; destruct o' as [s'|s'|s'|q' s'|s']; try contradiction;
    cbn [outcome_state finished_flag]; rewrite SE; split; reflexivity.
Qed.

(** the converse (the backward half of [level0_sim]): if the IR run ends, so does the canonical run, and
    alike; hence a canonically divergent program diverges at level 0 too (C05 at level 0) *)
Theorem level0_backward : forall w e src p blk fi o', 1 <= w ->
  ast_of_source src = Some p -> parse w src = POk blk ->
  ir_run w e false 0 fi blk = o' -> iterminal o' ->
  exists f o, bf_exec w e f p bf0 = o /\ terminal o /\ same_events o o'.
Proof.
  intros w e src p blk fi o' Hw1 HA HP HX T.
  rewrite (parse_comp w src p HA) in HP. injection HP as <-. unfold ir_run in HX. cbn [snd] in HX.
  destruct (proj2 (level0_sim w e p ltac:(lia)) o' (conj T (ex_intro _ fi HX))) as (o & [To [f Hf]] & M).
  exists f, o. split; [exact Hf|]. split; [exact To|].
  destruct o; destruct o'; try contradiction; exact M.
Qed.

Corollary level0_divergence : forall w e src p blk, 1 <= w ->
  ast_of_source src = Some p -> parse w src = POk blk ->
  (forall f, ~ terminal (bf_exec w e f p bf0)) ->
  forall fi, ~ iterminal (ir_run w e false 0 fi blk).
Proof.
  intros w e src p blk Hw1 HA HP D fi T.
  destruct (level0_backward w e src p blk fi _ Hw1 HA HP eq_refl T) as (f & o & Hf & To & _).
  apply (D f). rewrite Hf. exact To.
Qed.
