(** * InplaceProofs.v — the in-place interpreter (pc / loop-stack machine over the byte string)
    simulates, and is simulated by, the canonical machine (property C04). *)

From Coq Require Import ZArith List Arith.
From HPBF Require Import Cell IO BF Machines Inplace MachineProofs.
Import ListNotations.
Open Scope Z_scope.

Definition simple_of (c : Z) : option cmd :=
  if c =? ch_plus then Some Inc else if c =? ch_minus then Some Dec
  else if c =? ch_lt then Some Left else if c =? ch_gt then Some Right
  else if c =? ch_dot then Some Out else if c =? ch_comma then Some In else None.

(** [parses text cmds after]: [text] reads as [cmds] up to its first unmatched ']' (or its end);
    [after] is the remaining text (empty, or starting with that ']') *)
Inductive parses : list Z -> list cmd -> list Z -> Prop :=
| P_nil : parses [] [] []
| P_close : forall r, parses (ch_close :: r) [] (ch_close :: r)
| P_simple : forall c x r cs a, (c =? ch_open) = false -> (c =? ch_close) = false ->
    simple_of c = Some x -> parses r cs a -> parses (c :: r) (x :: cs) a
| P_comment : forall c r cs a, (c =? ch_open) = false -> (c =? ch_close) = false ->
    simple_of c = None -> parses r cs a -> parses (c :: r) cs a
| P_loop : forall r body r2 cs a, parses r body (ch_close :: r2) -> parses r2 cs a ->
    parses (ch_open :: r) (Loop body :: cs) a.

Lemma simple_of_simple : forall c x, simple_of c = Some x -> simple_cmd x.
Proof.
  intros c x. unfold simple_of.
  do 6 (destruct (c =? _); [intros [= <-]; exact I|]). discriminate.
Qed.

Lemma bracket_or_not : forall c,
  c = ch_close \/ c = ch_open \/ ((c =? ch_close) = false /\ (c =? ch_open) = false).
Proof.
  intros c. destruct (Z.eqb_spec c ch_close) as [E|_]; [left; exact E|right].
  destruct (Z.eqb_spec c ch_open) as [E|_]; [left; exact E|right; split; reflexivity].
Qed.

Lemma parse_seg_other : forall f c r, (c =? ch_close) = false -> (c =? ch_open) = false ->
  parse_seg (S f) (c :: r) =
  match parse_seg f r with
  | Some (more, a) => Some (match simple_of c with Some x => x :: more | None => more end, a)
  | None => None
  end.
Proof.
  intros f c r Hc Ho. cbn [parse_seg]. rewrite Hc, Ho. clear Hc Ho.
  destruct (parse_seg f r) as [[more a]|]; [|reflexivity]. unfold simple_of.
  do 6 (destruct (c =? _); [reflexivity|]). reflexivity.
Qed.

Lemma parse_seg_parses : forall f cs p a, parse_seg f cs = Some (p, a) ->
  parses cs p a /\ (a = [] \/ exists r, a = ch_close :: r).
Proof.
  induction f as [|f IH]; intros cs p a H; [discriminate|].
  destruct cs as [|c r]; [injection H as <- <-; split; [constructor|left; reflexivity]|].
  destruct (bracket_or_not c) as [->|[->|[Hc Ho]]].
  - change (Some ([], ch_close :: r) = Some (p, a)) in H. injection H as <- <-.
    split; [constructor|right; eexists; reflexivity].
  - cbn [parse_seg] in H. change (ch_open =? ch_close) with false in H. change (ch_open =? ch_open) with true in H.
    cbv iota in H.
    destruct (parse_seg f r) as [[body after]|] eqn:P1; [|discriminate].
    destruct after as [|x r2]; [discriminate|].
    destruct (parse_seg f r2) as [[more a2]|] eqn:P2; [|discriminate].
    injection H as <- <-.
    destruct (IH _ _ _ P1) as [Q1 [C1|[r' C1]]]; [discriminate|]. injection C1 as -> ->.
    destruct (IH _ _ _ P2) as [Q2 C2].
    split; [eapply P_loop; eassumption|exact C2].
  - rewrite (parse_seg_other f c r Hc Ho) in H.
    destruct (parse_seg f r) as [[more a2]|] eqn:P1; [|discriminate]. injection H as <- <-.
    destruct (IH _ _ _ P1) as [Q1 C1]. split; [|exact C1].
    destruct (simple_of c) eqn:Hs; [apply P_simple|apply P_comment]; assumption.
Qed.

Lemma ast_parses : forall src p, ast_of_source src = Some p -> parses src p [].
Proof.
  intros src p H. unfold ast_of_source in H.
  destruct (parse_seg (S (length src)) src) as [[q a]|] eqn:P; [|discriminate].
  destruct a; [|discriminate]. injection H as <-. apply (parse_seg_parses _ _ _ _ P).
Qed.

(** at depth [n] the scan passes a text that parses and the ']' after it, and goes on one level up;
    at depth 0 it stops there: a skipped loop ends exactly after its matching ']' *)
Lemma scan_parses : forall text cs a, parses text cs a -> forall n,
  ip_scan text n = match a with
                   | [] => []
                   | _ :: r2 => match n with O => r2 | S n' => ip_scan r2 n' end
                   end.
Proof.
  intros text cs a H.
  induction H as [|r|c x r cs a Ho Hc Hs Hp IH|c r cs a Ho Hc Hs Hp IH|r body r2 cs a H1 IH1 H2 IH2]; intros n.
  - reflexivity.
  - reflexivity.
  - cbn [ip_scan]. rewrite Hc, Ho. apply IH.
  - cbn [ip_scan]. rewrite Hc, Ho. apply IH.
  - rewrite <- IH2. exact (IH1 (S n)).
Qed.

Corollary scan_skips_matching : forall r body r2, parses r body (ch_close :: r2) -> ip_scan r O = r2.
Proof. intros r body r2 H. rewrite (scan_parses _ _ _ H). reflexivity. Qed.

(** one step of the in-place machine in unlimited mode: [ip_exec] with [limited = false] iterates it *)
Definition ip_step (w : Z) (e : env) (total : Z) (rest : list Z) (s : ipst) : (list Z * ipst) + outcome ipst :=
  match rest with
  | [] => inr (Done s)
  | c :: rest' =>
      if c =? ch_lt then inl (rest', ip_move s (-1))
      else if c =? ch_gt then inl (rest', ip_move s 1)
      else if c =? ch_plus then inl (rest', ip_set_cur s (wadd w (ip_cur s) 1))
      else if c =? ch_minus then inl (rest', ip_set_cur s (wadd w (ip_cur s) (neg_one w)))
      else if c =? ch_dot then
        match do_output e (ip_io s) (into_u8 w (ip_cur s)) with
        | IoOk _ i => inl (rest', ip_set_io s i)
        | IoFail i => inr (Stopped (ip_set_io s i))
        end
      else if c =? ch_comma then
        match do_input e (ip_io s) with
        | IoOk b i => inl (rest', ip_set_io (ip_set_cur s (from_u8 w b)) i)
        | IoFail i => inr (Stopped (ip_set_io s i))
        end
      else if c =? ch_open then
        if ip_cur s =? 0 then inl (ip_scan rest' O, s)
        else inl (rest', ip_set_stack s (rest' :: ip_stack s))
      else if c =? ch_close then
        match ip_stack s with
        | [] => inr (Errored (total - Z.of_nat (length rest)) s)
        | target :: st' =>
            if ip_cur s =? 0 then inl (rest', ip_set_stack s st') else inl (target, s)
        end
      else inl (rest', s)
  end.

Lemma ip_exec_step : forall w e total f rest s,
  ip_exec w e false total (S f) rest s =
  match ip_step w e total rest s with
  | inl (rest', s') => ip_exec w e false total f rest' s'
  | inr o => o
  end.
Proof.
  intros. destruct rest as [|c rest']; [reflexivity|]. cbn [ip_exec]. unfold ip_step.
  destruct (c =? ch_lt); [reflexivity|]. destruct (c =? ch_gt); [reflexivity|].
  destruct (c =? ch_plus); [reflexivity|]. destruct (c =? ch_minus); [reflexivity|].
  destruct (c =? ch_dot); [destruct (do_output e (ip_io s) (into_u8 w (ip_cur s))); reflexivity|].
  destruct (c =? ch_comma); [destruct (do_input e (ip_io s)); reflexivity|].
  destruct (c =? ch_open); [destruct (ip_cur s =? 0); reflexivity|].
  destruct (c =? ch_close); [|reflexivity].
  cbn [andb]. destruct (ip_stack s); [reflexivity|]. destruct (ip_cur s =? 0); reflexivity.
Qed.

(** the canonical state an in-place state stands for; an in-place state with that part replaced *)
Definition bf_of (i : ipst) : bfst := {| tape := ip_tape i; ptr := ip_ptr i; io := ip_io i |}.
Definition with_bf (i : ipst) (b : bfst) : ipst :=
  {| ip_tape := tape b; ip_ptr := ptr b; ip_io := io b; ip_budget := ip_budget i; ip_stack := ip_stack i |}.

Lemma ip_step_close : forall w e total r s,
  ip_step w e total (ch_close :: r) s =
  match ip_stack s with
  | [] => inr (Errored (total - Z.of_nat (length (ch_close :: r))) s)
  | target :: st' => if ip_cur s =? 0 then inl (r, ip_set_stack s st') else inl (target, s)
  end.
Proof. reflexivity. Qed.

Lemma ip_step_open : forall w e total r s,
  ip_step w e total (ch_open :: r) s =
  if ip_cur s =? 0 then inl (ip_scan r O, s) else inl (r, ip_set_stack s (r :: ip_stack s)).
Proof. reflexivity. Qed.

(** on a simple command the in-place machine does what [bf_simple] does to the state it stands for *)
Lemma ip_step_other : forall w e total c r s, (c =? ch_close) = false -> (c =? ch_open) = false ->
  ip_step w e total (c :: r) s =
  match simple_of c with
  | Some x => match bf_simple w e x (bf_of s) with
              | inl b => inl (r, with_bf s b)
              | inr b => inr (Stopped (with_bf s b))
              end
  | None => inl (r, s)
  end.
Proof.
  intros w e total c r s Hc Ho. unfold ip_step, simple_of. rewrite Hc, Ho. clear Hc Ho.
  (* the machine and [simple_of] test in different orders: each test identifies [c] or passes on *)
  destruct (Z.eqb_spec c ch_lt) as [->|_]; [reflexivity|].
  destruct (Z.eqb_spec c ch_gt) as [->|_]; [reflexivity|].
  destruct (Z.eqb_spec c ch_plus) as [->|_]; [reflexivity|].
  destruct (Z.eqb_spec c ch_minus) as [->|_]; [reflexivity|].
  destruct (Z.eqb_spec c ch_dot) as [->|_].
  { cbn. change (cur (bf_of s)) with (ip_cur s). destruct (do_output _ _ _); reflexivity. }
  destruct (Z.eqb_spec c ch_comma) as [->|_]; [cbn; destruct (do_input _ _); reflexivity|reflexivity].
Qed.

(** [crel ctl k rest st]: the text [rest] reads as [ctl] up to the ']' of the innermost open loop
    (to its end if [k] is empty).  The stack entry for a frame [(body, krest)] is the text after
    that loop's '[': it reads as [body] and ends at the same ']'; the text after that ']' is
    related to [krest] and the remaining frames in the same way *)
Inductive crel : list cmd -> list (list cmd * list cmd) -> list Z -> list (list Z) -> Prop :=
| CR_top : forall ctl rest, parses rest ctl [] -> crel ctl [] rest []
| CR_frame : forall ctl body krest k rest target r2 st,
    parses rest ctl (ch_close :: r2) -> parses target body (ch_close :: r2) ->
    crel krest k r2 st -> crel ctl ((body, krest) :: k) rest (target :: st).

(** [b = bf_of i], field by field ([st_rel_bf_of]) *)
Definition st_rel (b : bfst) (i : ipst) : Prop :=
  tape b = ip_tape i /\ ptr b = ip_ptr i /\ io b = ip_io i.

(** the simulation relation: the canonical machine at [c], the in-place machine at text [rest] in state [i] *)
Definition rel (c : bfcfg) (rest : list Z) (i : ipst) : Prop :=
  crel (c_ctl c) (c_kont c) rest (ip_stack i) /\ st_rel (c_st c) i.

Lemma st_rel_bf_of : forall b i, st_rel b i -> b = bf_of i.
Proof. intros [t p o] i (T & P & O). cbn in T, P, O. subst. reflexivity. Qed.

Lemma st_rel_with_bf : forall i b, st_rel b (with_bf i b).
Proof. intros i b. repeat split. Qed.

(** what the unmatched remainder [a] of the current text says about the enclosing loops *)
Definition open_loops (k : list (list cmd * list cmd)) (a : list Z) (st : list (list Z)) : Prop :=
  match a with
  | [] => k = [] /\ st = []
  | c :: r2 => exists body krest k' target st', c = ch_close /\ k = (body, krest) :: k' /\ st = target :: st' /\
      parses target body (ch_close :: r2) /\ crel krest k' r2 st'
  end.

Lemma crel_inv : forall ctl k rest st, crel ctl k rest st -> exists a, parses rest ctl a /\ open_loops k a st.
Proof.
  intros ctl k rest st H. destruct H as [ctl rest H|ctl body krest k rest target r2 st H1 H2 H3].
  - exists []. repeat split. exact H.
  - exists (ch_close :: r2). split; [exact H1|]. exists body, krest, k, target, st. repeat split; assumption.
Qed.

Lemma crel_intro : forall ctl k rest st a, parses rest ctl a -> open_loops k a st -> crel ctl k rest st.
Proof.
  intros ctl k rest st [|c r2] P F.
  - destruct F as [-> ->]. constructor. exact P.
  - destruct F as (body & krest & k' & target & st' & -> & -> & -> & PT & CK). econstructor; eassumption.
Qed.

Definition same_result (ob : outcome bfst) (oi : outcome ipst) : Prop :=
  match ob, oi with
  | Done b, Done i => st_rel b i
  | Stopped b, Stopped i => st_rel b i
  | _, _ => False
  end.

Definition halted {A} (o : outcome A) : Prop := match o with Done _ | Stopped _ => True | _ => False end.

(** one in-place step is matched by one canonical step, or is a stutter that shortens the text *)
Definition sim_res (c : bfcfg) (rest : list Z) (sb : step_res bfcfg) (si : (list Z * ipst) + outcome ipst) : Prop :=
  match si with
  | inl (rest', i') =>
      (exists c', sb = Next c' /\ rel c' rest' i') \/ ((length rest' < length rest)%nat /\ rel c rest' i')
  | inr oi => exists ob, sb = Final ob /\ same_result ob oi
  end.

Lemma sim_step : forall w e total c rest i, rel c rest i ->
  sim_res c rest (bf_step w e c) (ip_step w e total rest i).
Proof.
  intros w e total [ctl k b] rest i [CR SR]. cbn [c_ctl c_kont c_st] in CR, SR.
  apply st_rel_bf_of in SR. subst b.
  destruct (crel_inv _ _ _ _ CR) as (a & P & FR). clear CR.
  assert (SB : st_rel (bf_of i) i) by (repeat split).
  inversion P as [|r|c x r cs a0 Ho Hc Hs P'|c r cs a0 Ho Hc Hs P'|r body r2 cs a0 P1 P2]; subst.
  - (* no loop is open at the end of the text *)
    destruct FR as [-> _]. exists (Done (bf_of i)). split; [reflexivity|exact SB].
  - (* ']': both machines test the cell and leave the innermost loop or re-enter it *)
    destruct FR as (body & krest & k' & target & st' & _ & -> & Hst & PT & CK).
    rewrite ip_step_close, Hst, bf_step_pop, bf_step_loop. change (cur (bf_of i)) with (ip_cur i).
    destruct (ip_cur i =? 0); left; eexists; (split; [reflexivity|]).
    + split; [exact CK|exact SB].
    + split; [|exact SB]. cbn [c_ctl c_kont]. rewrite Hst. econstructor; eassumption.
  - (* a command *)
    rewrite (ip_step_other w e total c r i Hc Ho), Hs, (bf_step_simple w e x cs k _ (simple_of_simple c x Hs)).
    destruct (bf_simple w e x (bf_of i)) as [b|b].
    + left. eexists. split; [reflexivity|]. split; [exact (crel_intro _ _ _ _ _ P' FR)|apply st_rel_with_bf].
    + exists (Stopped b). split; [reflexivity|apply st_rel_with_bf].
  - (* a comment: the in-place machine alone advances *)
    rewrite (ip_step_other w e total c r i Hc Ho), Hs.
    right. split; [apply Nat.lt_succ_diag_r|]. split; [exact (crel_intro _ _ _ _ _ P' FR)|exact SB].
  - (* '[': skipped by the scan, or entered with the body's text pushed *)
    rewrite ip_step_open, bf_step_loop. change (cur (bf_of i)) with (ip_cur i).
    destruct (ip_cur i =? 0); left; eexists; (split; [reflexivity|]).
    + split; [|exact SB]. rewrite (scan_skips_matching _ _ _ P1). exact (crel_intro _ _ _ _ _ P2 FR).
    + split; [exact (CR_frame _ _ _ _ _ _ _ _ P1 P1 (crel_intro _ _ _ _ _ P2 FR))|exact SB].
Qed.

Theorem inplace_to_canonical : forall w e total m c rest i, rel c rest i ->
  halted (ip_exec w e false total m rest i) ->
  exists n, same_result (bf_steps w e n c) (ip_exec w e false total m rest i).
Proof.
  intros w e total. induction m as [|m IH]; intros c rest i R H; [contradiction|].
  rewrite ip_exec_step in H |- *. pose proof (sim_step w e total c rest i R) as S.
  destruct (ip_step w e total rest i) as [[rest' i']|oi].
  - destruct S as [[c' [Hs R']]|[_ R']].
    + destruct (IH c' rest' i' R' H) as [n Hn]. exists (S n). rewrite (bf_steps_next _ _ _ _ _ Hs). exact Hn.
    + exact (IH c rest' i' R' H).
  - destruct S as (ob & Hs & Hr). exists 1%nat. rewrite (bf_steps_final _ _ _ _ _ Hs). exact Hr.
Qed.

Theorem canonical_to_inplace : forall w e total n c rest i, rel c rest i ->
  halted (bf_steps w e n c) ->
  exists m, same_result (bf_steps w e n c) (ip_exec w e false total m rest i).
Proof.
  intros w e total. induction n as [|n IH]; intros c rest i R H; [contradiction|].
  (* stuttering on comment bytes is bounded by the length of the remaining text *)
  revert i R. induction rest as [rest IHr] using (induction_ltof1 _ (@length Z)). intros i R.
  pose proof (sim_step w e total c rest i R) as S.
  destruct (ip_step w e total rest i) as [[rest' i']|oi] eqn:ST.
  - destruct S as [[c' [Hs R']]|[Hlt R']].
    + rewrite (bf_steps_next _ _ _ _ _ Hs) in H |- *. destruct (IH c' rest' i' R' H) as [m Hm].
      exists (S m). rewrite ip_exec_step, ST. exact Hm.
    + destruct (IHr rest' Hlt i' R') as [m Hm].
      exists (S m). rewrite ip_exec_step, ST. exact Hm.
  - destruct S as (ob & Hs & Hr). rewrite (bf_steps_final _ _ _ _ _ Hs).
    exists 1%nat. rewrite ip_exec_step, ST. exact Hr.
Qed.

(** C04 for runs still under way: the in-place state is that of the canonical machine after at
    most as many steps (fewer by the comment bytes passed) *)
Theorem inplace_prefix : forall w e total m c rest i, rel c rest i ->
  (exists n c' rest' i', (n <= m)%nat /\ bf_cfg_after w e n c = Some c' /\ rel c' rest' i' /\
        ip_exec w e false total m rest i = OutOfFuel i')
  \/ halted (ip_exec w e false total m rest i).
Proof.
  intros w e total. induction m as [|m IH]; intros c rest i R.
  - left. exists 0%nat, c, rest, i. split; [apply le_n|]. split; [reflexivity|]. split; [exact R|reflexivity].
  - rewrite ip_exec_step. pose proof (sim_step w e total c rest i R) as S.
    destruct (ip_step w e total rest i) as [[rest' i']|oi].
    + destruct S as [[c' [Hs R']]|[_ R']].
      * destruct (IH c' rest' i' R') as [(n & c2 & r2 & i2 & Hn & Hc & Hr)|Hh]; [left|right; exact Hh].
        exists (S n), c2, r2, i2. split; [apply le_n_S, Hn|]. cbn [bf_cfg_after]. rewrite Hs. split; assumption.
      * destruct (IH c rest' i' R') as [(n & c2 & r2 & i2 & Hn & Hr)|Hh]; [left|right; exact Hh].
        exists n, c2, r2, i2. split; [apply le_S, Hn|exact Hr].
    + right. destruct S as (ob & _ & Hr). destruct ob; try contradiction; destruct oi; try contradiction; exact I.
Qed.

(** C04: on a balanced source text either machine halts iff the other does, and then in the same state *)
Theorem inplace_canonical : forall w e src p, ast_of_source src = Some p ->
  let c0 := {| c_ctl := p; c_kont := []; c_st := bf0 |} in
  (forall m, halted (ip_run w e false 0 m src) -> exists n, same_result (bf_steps w e n c0) (ip_run w e false 0 m src))
  /\ (forall n, halted (bf_steps w e n c0) -> exists m, same_result (bf_steps w e n c0) (ip_run w e false 0 m src)).
Proof.
  intros w e src p H c0.
  assert (R : rel c0 src (ip0 0)).
  { split; simpl; [constructor; apply ast_parses; exact H|repeat split]. }
  split; intros k Hk.
  - apply inplace_to_canonical; assumption.
  - apply canonical_to_inplace; assumption.
Qed.

(** C04: a single [ip_step] is defined on any text and stack (the statement is about one step,
    not about runs); the only error is a ']' with no loop open *)
Theorem inplace_total : forall w e total rest s,
  match ip_step w e total rest s with
  | inr (Errored _ _) => exists r, rest = ch_close :: r /\ ip_stack s = []
  | inr (OutOfFuel _) | inr (Interrupted _) => False
  | _ => True
  end.
Proof.
  intros w e total rest s. destruct rest as [|c r]; [exact I|].
  destruct (bracket_or_not c) as [->|[->|[Hc Ho]]].
  - rewrite ip_step_close. destruct (ip_stack s); [eexists; split; reflexivity|].
    destruct (ip_cur s =? 0); exact I.
  - rewrite ip_step_open. destruct (ip_cur s =? 0); exact I.
  - rewrite (ip_step_other w e total c r s Hc Ho).
    destruct (simple_of c) as [x|]; [destruct (bf_simple w e x (bf_of s))|]; exact I.
Qed.
