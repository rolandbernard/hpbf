(** * LimitedProofs.v — budget-limited execution of the IR interpreter model ([IR.ir_exec] with
    [limited = true], src/exec/irint.rs [execute_block::<_, true>]) is a faithful finite prefix
    of the unlimited execution (property C07, IR interpreter). *)
From Coq Require Import ZArith List Bool Lia Arith.
From HPBF Require Import Cell IO Expr IR Level0Proofs.
Import ListNotations.
Open Scope Z_scope.

(** A loop and a conditional differ only in what runs after the body: [after_body_lim] is what
    [ir_exec] does with the outcome [o] of the body, [k] being the run of what comes next (the loop
    once more, or the rest of the block). *)
Definition after_body_lim (lim : bool) (shift : Z) (k : irst -> outcome irst) (o : outcome irst) : outcome irst :=
  match o with
  | Stopped s' => Stopped s'
  | OutOfFuel s' => OutOfFuel s'
  | Errored p s' => Errored p s'
  | Done s' | Interrupted s' =>
      let s'' := ir_move s' shift in
      if lim then
        if ir_budget s'' =? 0 then Interrupted s''
        else k (ir_set_budget s'' (ir_budget s'' - 1))
      else k s''
  end.

Lemma exec_loop : forall w e lim f c sh body once rest s,
  ir_exec w e lim (S f) (ILoop c sh body once :: rest) s =
  if ir_read s c =? 0 then ir_exec w e lim f rest s
  else after_body_lim lim sh (ir_exec w e lim f (ILoop c sh body once :: rest)) (ir_exec w e lim f body s).
Proof. reflexivity. Qed.

Lemma exec_if : forall w e lim f c sh body rest s,
  ir_exec w e lim (S f) (IIf c sh body :: rest) s =
  if ir_read s c =? 0 then ir_exec w e lim f rest s
  else after_body_lim lim sh (ir_exec w e lim f rest) (ir_exec w e lim f body s).
Proof. reflexivity. Qed.

Lemma writes_frame : forall (vals : list (Z * Z)) s,
  fold_left (fun s vv => ir_write s (fst vv) (snd vv)) vals s =
  {| ir_tape := fold_left (fun t vv => tset t (ir_ptr s + fst vv) (snd vv)) vals (ir_tape s);
     ir_ptr := ir_ptr s; ir_io := ir_io s; ir_budget := ir_budget s |}.
Proof. induction vals as [|vv vals IH]; intros s; [destruct s; reflexivity|]. cbn [fold_left]. rewrite IH. reflexivity. Qed.

Lemma calc_io : forall w calcs s, ir_io (ir_calc w calcs s) = ir_io s.
Proof. intros w calcs s. exact (f_equal ir_io (writes_frame _ s)). Qed.
Lemma calc_budget : forall w calcs s, ir_budget (ir_calc w calcs s) = ir_budget s.
Proof. intros w calcs s. exact (f_equal ir_budget (writes_frame _ s)). Qed.
Lemma calc_set_budget : forall w calcs s b, ir_calc w calcs (ir_set_budget s b) = ir_set_budget (ir_calc w calcs s) b.
Proof. intros w calcs s b. unfold ir_calc. rewrite !writes_frame. reflexivity. Qed.

(** What a run does to the I/O state: [P] holds of the I/O state as long as no request fails;
    after the failed request that stops the run, [Q] holds. *)
Definition io_step {A} (P Q : iost -> Prop) (r : io_res A) : Prop :=
  match r with IoOk _ i => P i | IoFail i => Q i end.
Definition io_shape {A} (P Q : iost -> Prop) (get : A -> iost) (o : outcome A) : Prop :=
  match o with
  | Stopped s => Q (get s)
  | Done s | Interrupted s | OutOfFuel s | Errored _ s => P (get s)
  end.

Lemma ir_io_inv : forall e (P Q : iost -> Prop),
  (forall i, P i -> io_step P Q (do_input e i)) -> (forall i b, P i -> io_step P Q (do_output e i b)) ->
  forall w lim f p s, P (ir_io s) -> io_shape P Q ir_io (ir_exec w e lim f p s).
Proof.
  intros e P Q HI HO w lim f. induction f as [|f IH]; intros p s C; [exact C|].
  destruct p as [|i rest]; [exact C|].
  assert (AB : forall sh body cont,
    io_shape P Q ir_io (after_body_lim lim sh (ir_exec w e lim f cont) (ir_exec w e lim f body s))).
  { intros sh body cont. pose proof (IH body s C) as B.
    destruct (ir_exec w e lim f body s) as [a|a|a|q a|a]; cbn [after_body_lim io_shape] in *; try exact B.
    all: destruct lim; [destruct (ir_budget (ir_move a sh) =? 0)|].
    all: first [exact B|apply IH; exact B]. }
  destruct i as [src|dst|calcs|cond shift body once|cond shift body];
    [cbn [ir_exec]..|rewrite exec_loop|rewrite exec_if].
  - pose proof (HO (ir_io s) (into_u8 w (ir_read s src)) C) as O.
    destruct (do_output e (ir_io s) _); [apply IH|]; exact O.
  - pose proof (HI (ir_io s) C) as O. destruct (do_input e (ir_io s)); [apply IH|]; exact O.
  - apply IH. rewrite calc_io. exact C.
  - destruct (ir_read s cond =? 0); [apply IH; exact C|apply AB].
  - destruct (ir_read s cond =? 0); [apply IH; exact C|apply AB].
Qed.

Definition extends (old new : list event) : Prop := exists l, new = l ++ old.
Lemma extends_refl : forall t, extends t t. Proof. intros; exists []; reflexivity. Qed.
Lemma extends_trans : forall a b c, extends a b -> extends b c -> extends a c.
Proof. intros a b c [l1 ->] [l2 ->]. exists (l2 ++ l1). rewrite app_assoc. reflexivity. Qed.
Lemma extends_cons : forall t i ev, extends t (trace i) -> extends t (ev :: trace i).
Proof. intros t i ev H. apply (extends_trans _ _ _ H). exists [ev]. reflexivity. Qed.

Lemma input_extends : forall e t i, extends t (trace i) ->
  io_step (fun j => extends t (trace j)) (fun j => extends t (trace j)) (do_input e i).
Proof.
  intros e t i H. unfold do_input. destruct (in_absent e); [exact H|].
  destruct (opt_nat_eqb (in_fail_at e) (in_pos i)); [|destruct (nth_error (input e) (in_pos i))];
    apply extends_cons, H.
Qed.
Lemma output_extends : forall e t i b, extends t (trace i) ->
  io_step (fun j => extends t (trace j)) (fun j => extends t (trace j)) (do_output e i b).
Proof.
  intros e t i b H. unfold do_output. destruct (negb (out_present e)); [exact H|].
  destruct (opt_nat_eqb (out_fail_at e) (out_cnt i)); apply extends_cons, H.
Qed.

Lemma io_shape_same : forall A (P : iost -> Prop) (get : A -> iost) o, io_shape P P get o -> P (get (outcome_state o)).
Proof. intros A P get o H. destruct o; exact H. Qed.

Lemma exec_extends : forall w e lim g p s,
  extends (trace (ir_io s)) (trace (ir_io (outcome_state (ir_exec w e lim g p s)))).
Proof.
  intros w e lim g p s. apply io_shape_same with (P := fun j => extends (trace (ir_io s)) (trace j)).
  apply (ir_io_inv e _ _ (input_extends e _) (output_extends e _)), extends_refl.
Qed.

(** states that agree on everything except the budget *)
Definition beq (s t : irst) : Prop :=
  ir_tape s = ir_tape t /\ ir_ptr s = ir_ptr t /\ ir_io s = ir_io t.

Definition oeq (o1 o2 : outcome irst) : Prop :=
  match o1, o2 with
  | Done a, Done b | Stopped a, Stopped b | Interrupted a, Interrupted b | OutOfFuel a, OutOfFuel b => beq a b
  | Errored p a, Errored q b => p = q /\ beq a b
  | _, _ => False
  end.

Lemma beq_sym : forall s t, beq s t -> beq t s. Proof. intros s t (A & B & C); repeat split; congruence. Qed.

Lemma oeq_sym : forall a b, oeq a b -> oeq b a.
Proof.
  intros [a|a|a|p a|a] [b|b|b|q b|b] H; try exact H; try exact (beq_sym _ _ H).
  destruct H as [-> H]. exact (conj eq_refl (beq_sym _ _ H)).
Qed.
Lemma oeq_io : forall a b, oeq a b -> ir_io (outcome_state a) = ir_io (outcome_state b).
Proof.
  intros [a|a|a|p a|a] [b|b|b|q b|b] H; try contradiction; cbn in *; try (destruct H as (_ & _ & C); exact C).
  destruct H as [_ (_ & _ & C)]. exact C.
Qed.

Definition with_budget (o : outcome irst) (b : Z) : outcome irst :=
  match o with
  | Done s => Done (ir_set_budget s b) | Stopped s => Stopped (ir_set_budget s b)
  | Interrupted s => Interrupted (ir_set_budget s b) | Errored p s => Errored p (ir_set_budget s b)
  | OutOfFuel s => OutOfFuel (ir_set_budget s b)
  end.

(** [LP o U]: what a limited outcome [o] says about the unlimited outcome [U] of the same run.
    [ir_exec] has no operation that fails with [Errored]; [LP] says so of the limited run too. *)
Definition LP (o U : outcome irst) : Prop :=
  match o with
  | Done s' => oeq U (Done s')
  | Stopped s' => oeq U (Stopped s')
  | Interrupted s' => ir_budget s' = 0 /\ extends (trace (ir_io s')) (trace (ir_io (outcome_state U)))
  | Errored _ _ => False
  | OutOfFuel _ => True
  end.

(** The induction goes through for the sharper statement: the unlimited run does not look at the
    budget, so it can carry any [B] along and ends in the limited run's state with budget [B].
    Every operation commutes with [ir_set_budget] by computation. *)
Definition LPeq (B : Z) (o U : outcome irst) : Prop :=
  match o with
  | Done _ | Stopped _ => U = with_budget o B
  | Interrupted s' => ir_budget s' = 0 /\ extends (trace (ir_io s')) (trace (ir_io (outcome_state U)))
  | Errored _ _ => False
  | OutOfFuel _ => True
  end.

Lemma LPeq_after_body_lim : forall w e f g cont sh B o U, LPeq B o U ->
  (forall t, LPeq B (ir_exec w e true f cont t) (ir_exec w e false g cont (ir_set_budget t B))) ->
  LPeq B (after_body_lim true sh (ir_exec w e true f cont) o) (after_body_lim false sh (ir_exec w e false g cont) U).
Proof.
  intros w e f g cont sh B o U H HC. destruct o as [a|a|a|q a|a]; cbn [LPeq after_body_lim with_budget] in *.
  - subst U. cbn [after_body_lim]. destruct (ir_budget (ir_move a sh) =? 0) eqn:BZ.
    + split; [apply Z.eqb_eq; exact BZ|]. exact (exec_extends w e false g cont (ir_move (ir_set_budget a B) sh)).
    + exact (HC (ir_set_budget (ir_move a sh) (ir_budget (ir_move a sh) - 1))).
  - subst U. reflexivity.
  - (* body interrupted: its budget is 0, so the enclosing test interrupts as well *)
    destruct H as [B0 BX]. cbn [ir_move ir_budget ir_io]. rewrite B0. split; [exact B0|].
    destruct U; cbn [outcome_state after_body_lim] in *; try exact BX;
      (eapply extends_trans; [exact BX|]; apply (exec_extends w e false g cont (ir_move _ sh))).
  - contradiction.
  - exact I.
Qed.

Lemma limited_prefix_eq : forall w e f p s g B, (f <= g)%nat ->
  LPeq B (ir_exec w e true f p s) (ir_exec w e false g p (ir_set_budget s B)).
Proof.
  intros w e f. induction f as [|f IH]; intros p s g B L; [exact I|].
  destruct g as [|g]; [lia|]. assert (L' : (f <= g)%nat) by lia.
  destruct p as [|i rest]; [reflexivity|].
  destruct i as [src|dst|calcs|cond shift body once|cond shift body];
    [cbn [ir_exec]..|rewrite !exec_loop|rewrite !exec_if];
    change (ir_io (ir_set_budget s B)) with (ir_io s); change (ir_read (ir_set_budget s B)) with (ir_read s).
  - destruct (do_output e (ir_io s) _) as [u i|i]; [exact (IH rest (ir_set_io s i) g B L')|reflexivity].
  - destruct (do_input e (ir_io s)) as [b i|i]; [exact (IH rest (ir_write (ir_set_io s i) dst (from_u8 w b)) g B L')|reflexivity].
  - rewrite calc_set_budget. apply IH, L'.
  - destruct (ir_read s cond =? 0); [|apply LPeq_after_body_lim; [|intros t]]; apply IH, L'.
  - destruct (ir_read s cond =? 0); [|apply LPeq_after_body_lim; [|intros t]]; apply IH, L'.
Qed.

Lemma limited_prefix : forall w e f p s g, (f <= g)%nat ->
  LP (ir_exec w e true f p s) (ir_exec w e false g p s).
Proof.
  intros w e f p s g L. pose proof (limited_prefix_eq w e f p s g (ir_budget s) L) as H.
  replace (ir_set_budget s (ir_budget s)) with s in H by (destruct s; reflexivity).
  destruct (ir_exec w e true f p s); cbn [LP LPeq] in *; try exact H; rewrite H; repeat split.
Qed.

Fixpoint isize (i : instr) : nat :=
  match i with
  | ILoop _ _ body _ => S (list_sum (map isize body))
  | IIf _ _ body => S (list_sum (map isize body))
  | _ => 1
  end.
Definition bsize (p : list instr) : nat := list_sum (map isize p).

(** A limited run returns: it runs out of fuel [f] only below the bound [m], which
    [limited_returns] takes as program size + budget, a bound on the recursion depth: every call
    of [ir_exec] on a tail or a body has a smaller program, every further round one unit less. *)
Definition returns (f m : nat) (b : Z) (o : outcome irst) : Prop :=
  0 <= ir_budget (outcome_state o) <= b /\
  match o with Errored _ _ => False | OutOfFuel _ => (f < m)%nat | _ => True end.

Lemma returns_weaken : forall f m b o m' b', returns f m b o -> (m < m')%nat -> b <= b' -> returns (S f) m' b' o.
Proof. intros f m b o m' b' [H1 H2] Lm Lb. split; [lia|]. destruct o; try exact H2. lia. Qed.

Lemma limited_returns : forall w e f p s, 0 <= ir_budget s ->
  returns f (bsize p + Z.to_nat (ir_budget s) + 1) (ir_budget s) (ir_exec w e true f p s).
Proof.
  intros w e f. induction f as [|f IH]; intros p s B; [split; cbn [ir_exec outcome_state]; lia|].
  destruct p as [|i rest]; [split; [cbn [ir_exec outcome_state]; lia|exact I]|].
  assert (SZ : bsize (i :: rest) = (isize i + bsize rest)%nat) by reflexivity.
  (* each further round of a loop has one unit of budget less; an interrupted body is passed on
     like a finished one *)
  assert (AB : forall sh body cont, (bsize body < bsize (i :: rest))%nat -> (bsize cont <= bsize (i :: rest))%nat ->
    returns (S f) (bsize (i :: rest) + Z.to_nat (ir_budget s) + 1) (ir_budget s)
      (after_body_lim true sh (ir_exec w e true f cont) (ir_exec w e true f body s))).
  { intros sh body cont LB LC.
    assert (K : forall a, 0 <= ir_budget a <= ir_budget s ->
      returns (S f) (bsize (i :: rest) + Z.to_nat (ir_budget s) + 1) (ir_budget s)
        (after_body_lim true sh (ir_exec w e true f cont) (Done a))).
    { intros a B1. cbn [after_body_lim ir_move ir_budget]. destruct (ir_budget a =? 0) eqn:Z0; [split; [exact B1|exact I]|].
      apply Z.eqb_neq in Z0. eapply returns_weaken; [apply IH|..]; cbn [ir_set_budget ir_budget]; lia. }
    pose proof (IH body s B) as RB.
    destruct (ir_exec w e true f body s) as [a|a|a|q a|a].
    - apply K, RB.
    - eapply returns_weaken; [exact RB|lia..].
    - exact (K a (proj1 RB)).
    - destruct RB as [_ []].
    - eapply returns_weaken; [exact RB|lia..]. }
  destruct i as [src|dst|calcs|cond shift body once|cond shift body]; cbn [isize] in SZ;
    [cbn [ir_exec]..|rewrite exec_loop|rewrite exec_if].
  - destruct (do_output e (ir_io s) _) as [u i|i]; [|split; [exact (conj B (Z.le_refl _))|exact I]].
    eapply returns_weaken; [exact (IH rest (ir_set_io s i) B)|cbn [ir_set_io ir_budget]; lia|apply Z.le_refl].
  - destruct (do_input e (ir_io s)) as [b i|i]; [|split; [exact (conj B (Z.le_refl _))|exact I]].
    eapply returns_weaken; [exact (IH rest (ir_write (ir_set_io s i) dst (from_u8 w b)) B)|cbn [ir_write ir_set_io ir_budget]; lia|apply Z.le_refl].
  - eapply returns_weaken; [apply (IH rest (ir_calc w calcs s))|..]; rewrite calc_budget; lia.
  - fold (bsize body) in SZ. destruct (ir_read s cond =? 0); [eapply returns_weaken; [exact (IH rest s B)|lia..]|apply AB; lia].
  - fold (bsize body) in SZ. destruct (ir_read s cond =? 0); [eapply returns_weaken; [exact (IH rest s B)|lia..]|apply AB; lia].
Qed.

(** With a large enough budget the limited run is the unlimited run: the budget [n] it needs is
    the number of times the unlimited run comes to the end of a loop or conditional body *)
Lemma big_budget : forall w e f p s o, ir_exec w e false f p s = o -> iterminal o ->
  exists n, 0 <= n /\ forall b, n <= b -> ir_exec w e true f p (ir_set_budget s b) = with_budget o (b - n).
Proof.
  intros w e f. induction f as [|f IH]; intros p s o H T; [cbn in H; subst o; contradiction|].
  (* a run that ends here has been charged nothing *)
  assert (ZERO : forall o' : outcome irst, exists n, 0 <= n /\ forall b, n <= b -> with_budget o' b = with_budget o' (b - n)).
  { intros o'. exists 0. split; [lia|]. intros b _. rewrite Z.sub_0_r. reflexivity. }
  destruct p as [|i rest]; [subst o; exact (ZERO (Done s))|].
  assert (AB : forall sh body cont,
    after_body_lim false sh (ir_exec w e false f cont) (ir_exec w e false f body s) = o ->
    exists n, 0 <= n /\ forall b, n <= b ->
      after_body_lim true sh (ir_exec w e true f cont) (ir_exec w e true f body (ir_set_budget s b)) = with_budget o (b - n)).
  { intros sh body cont HB. pose proof (ir_unlimited_outcomes w e f body s) as NB.
    destruct (ir_exec w e false f body s) as [a|a|a|q a|a] eqn:UB; try contradiction; cbn [after_body_lim] in HB.
    - destruct (IH _ _ _ UB I) as (n1 & N1 & H1). destruct (IH _ _ _ HB T) as (n2 & N2 & H2).
      exists (n1 + 1 + n2). split; [lia|]. intros b Lb. rewrite (H1 b) by lia.
      cbn [with_budget after_body_lim ir_move ir_set_budget ir_budget].
      destruct (b - n1 =? 0) eqn:Z0; [apply Z.eqb_eq in Z0; lia|].
      (* the same state, written as [ir_set_budget _ _] for [H2] *)
      change (ir_exec w e true f cont ?x) with (ir_exec w e true f cont (ir_set_budget (ir_move a sh) (b - n1 - 1))).
      rewrite (H2 (b - n1 - 1)) by lia. f_equal. lia.
    - rewrite <- HB. destruct (IH _ _ _ UB I) as (n1 & N1 & H1). exists n1. split; [exact N1|]. intros b Lb.
      rewrite (H1 b Lb). reflexivity.
    - rewrite <- HB in T. contradiction. }
  destruct i as [src|dst|calcs|cond shift body once|cond shift body]; cbn [ir_exec] in H |- *;
    change (ir_io (ir_set_budget s ?b)) with (ir_io s); change (ir_read (ir_set_budget s ?b)) with (ir_read s).
  - destruct (do_output e (ir_io s) _) as [u i|i]; [exact (IH _ _ _ H T)|subst o; exact (ZERO (Stopped (ir_set_io s i)))].
  - destruct (do_input e (ir_io s)) as [v i|i]; [exact (IH _ _ _ H T)|subst o; exact (ZERO (Stopped (ir_set_io s i)))].
  - destruct (IH _ _ _ H T) as (n & N0 & HN). exists n. split; [exact N0|]. intros b Lb.
    rewrite calc_set_budget. exact (HN b Lb).
  - destruct (ir_read s cond =? 0); [exact (IH _ _ _ H T)|exact (AB shift body (ILoop cond shift body once :: rest) H)].
  - destruct (ir_read s cond =? 0); [exact (IH _ _ _ H T)|exact (AB shift body rest H)].
Qed.
