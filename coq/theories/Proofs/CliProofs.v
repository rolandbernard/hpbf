(** * CliProofs.v — the argument loop equals the declarative reading of the command line
    (property C16). *)
From Coq Require Import ZArith List Bool String Ascii.
From HPBF Require Import Cli.
Import ListNotations.
Open Scope string_scope.

Lemma app_assoc_s : forall a b c : string, (a ++ b) ++ c = a ++ (b ++ c).
Proof. induction a as [|x a IH]; intros b c; simpl; [reflexivity|rewrite IH; reflexivity]. Qed.
Lemma app_nil_s : forall a : string, a ++ "" = a.
Proof. induction a as [|x a IH]; simpl; [reflexivity|rewrite IH; reflexivity]. Qed.

(** [f] is what the declarative reading of [items] makes of [s] *)
Record reads (fs : string -> fileres) (s f : cstate) (items : list item) : Prop := {
  r_code : c_code f = c_code s ++ items_code fs items;
  r_opt : c_opt f = last_opt items (c_opt s);
  r_bits : c_bits f = last_bits items (c_bits s);
  r_kind : c_kind f = last_kind items (c_kind s);
  r_limit : c_limit f = last_limit items (c_limit s);
  r_safe : c_safe f = c_safe s && negb (any_static items);
  r_help : c_help f = c_help s || any_help items;
  r_err : c_err f = c_err s || any_file_error fs items
}.

(** Each branch of [cli_step] consumes the argument as one item; what is read from the state [s']
    after the step is read from the state before it with that item in front, up to associativity
    of [++] and [||].  The mode flags are rewritten in the goal, before the hypothesis is taken
    apart: rewriting in each of its eight fields is slow to check. *)
Lemma reads_step : forall t fs s a r f s', s' = cli_step t fs s a ->
  reads fs s' f (classify t r (c_nfile s') (c_nlimit s')) ->
  reads fs s f (classify t (a :: r) (c_nfile s) (c_nlimit s)).
Proof.
  intros t fs s a r f s' E. unfold cli_step, with_code in E. cbn [classify].
  destruct (c_nfile s) eqn:NF; [|destruct (c_nlimit s) eqn:NL].
  3: destruct (lookup t a) as [[]|].
  2: destruct (parse_usize a) eqn:P.
  1: destruct (fs a) eqn:F.
  all: subst s'; cbn [c_nfile c_nlimit apply_action]; rewrite ?NF, ?NL.
  all: intros [H1 H2 H3 H4 H5 H6 H7 H8]; cbn in *.
  all: constructor; cbn; rewrite ?F, ?P; try assumption.
  (* what is left: the text and error flag of a file or bare argument, [--help], [--static] *)
  all: try (rewrite H1; apply app_assoc_s).
  all: try (rewrite H8, <- orb_assoc; reflexivity).
  - rewrite H7. symmetry. apply orb_true_r.
  - rewrite H6. symmetry. apply andb_false_r.
Qed.

Lemma run_reads : forall t fs args s,
  reads fs s (fold_left (cli_step t fs) args s) (classify t args (c_nfile s) (c_nlimit s)).
Proof.
  intros t fs. induction args as [|a r IH]; intros s.
  - constructor; cbn; rewrite ?app_nil_s, ?andb_true_r, ?orb_false_r; reflexivity.
  - apply (reads_step t fs s a r _ _ eq_refl), IH.
Qed.

(** the program text is the in-order concatenation of file contents and bare arguments, for
    every interleaving with flags *)
Theorem code_concat : forall t d fs args,
  c_code (cli_run t d fs args) = items_code fs (classify t args false false).
Proof. intros. exact (r_code _ _ _ _ (run_reads t fs args (cstate0 d))). Qed.

(** the last flag of each class wins; defaults otherwise *)
Theorem last_wins : forall t d fs args,
  let items := classify t args false false in
  let f := cli_run t d fs args in
  c_opt f = last_opt items (d_opt d) /\ c_bits f = last_bits items (d_bits d) /\ c_kind f = last_kind items (d_kind d)
  /\ c_limit f = last_limit items None /\ c_safe f = negb (any_static items)
  /\ c_help f = any_help items /\ c_err f = any_file_error fs items.
Proof.
  intros. destruct (run_reads t fs args (cstate0 d)) as [_ H2 H3 H4 H5 H6 H7 H8].
  repeat split; assumption.
Qed.

(** exit status and what is run; nothing in the proof looks at [spec_widths] *)
Theorem decide_spec : forall t d fs args,
  let items := classify t args false false in
  let f := cli_run t d fs args in
  decide spec_widths f =
    if any_help items then DHelp (if any_file_error fs items then 1 else 0)
    else if any_file_error fs items then DNothing 1
    else match find (fun p => Z.eqb (fst p) (last_bits items (d_bits d))) spec_widths with
         | None => DPanic
         | Some (_, w) =>
             match last_limit items None with
             | Some l => DRun w (last_kind items (d_kind d)) (last_opt items (d_opt d)) "limited" l (items_code fs items)
             | None => DRun w (last_kind items (d_kind d)) (last_opt items (d_opt d))
                         (if negb (any_static items) then "checked" else "static") 0 (items_code fs items)
             end
         end.
Proof.
  intros. destruct (run_reads t fs args (cstate0 d)) as [H1 H2 H3 H4 H5 H6 H7 H8].
  unfold decide, f, cli_run. rewrite H1, H2, H3, H4, H5, H6, H7, H8. reflexivity.
Qed.

(** no panic: the width that is dispatched on is the default's or one the table sets *)
Definition dispatched (widths : list (Z * Z)) (n : Z) : bool :=
  if find (fun p => Z.eqb (fst p) n) widths then true else false.

Definition widths_cover (widths : list (Z * Z)) (d : defaults) (t : table) : bool :=
  dispatched widths (d_bits d)
  && forallb (fun e => match snd e with ASetBits n => dispatched widths n | _ => true end) t.

Lemma decide_panic : forall widths s, decide widths s = DPanic -> dispatched widths (c_bits s) = false.
Proof.
  intros widths s. unfold decide, dispatched.
  destruct (c_help s); [discriminate|]. destruct (c_err s); [discriminate|].
  destruct (find _ widths) as [[k w]|]; [destruct (c_limit s); discriminate|reflexivity].
Qed.

Lemma lookup_In : forall t a v, lookup t a = Some v -> In (a, v) t.
Proof.
  induction t as [|[k x] t IH]; intros a v H; [discriminate|]. cbn in H.
  destruct (String.eqb_spec k a) as [->|_].
  - injection H as ->. left. reflexivity.
  - right. apply IH, H.
Qed.

Lemma last_bits_from_table : forall (P : Z -> Prop) t, (forall k n, In (k, ASetBits n) t -> P n) ->
  forall args nf nl cur, P cur -> P (last_bits (classify t args nf nl) cur).
Proof.
  intros P t Ht. induction args as [|a r IH]; intros nf nl cur Hc; [exact Hc|].
  cbn [classify]. destruct nf; [apply IH, Hc|]. destruct nl; [apply IH, Hc|].
  destruct (lookup t a) as [act|] eqn:L; [|apply IH, Hc].
  destruct act; cbn [last_bits]; apply IH; try exact Hc.
  exact (Ht a n (lookup_In t a _ L)).
Qed.

Theorem decide_no_panic : forall widths d t, widths_cover widths d t = true ->
  forall fs args, decide widths (cli_run t d fs args) <> DPanic.
Proof.
  intros widths d t C fs args H. apply andb_prop in C. destruct C as [Cd Ct].
  apply decide_panic in H. unfold cli_run in H.
  rewrite (r_bits _ _ _ _ (run_reads t fs args (cstate0 d))) in H.
  revert H. apply eq_true_false_abs. apply last_bits_from_table; [|exact Cd].
  intros k n I. exact (proj1 (forallb_forall _ t) Ct _ I).
Qed.

(** with the specified table, only the four widths are reachable: no panic *)
Theorem no_width_panic : forall fs args,
  decide spec_widths (cli_run spec_table spec_defaults fs args) <> DPanic.
Proof. exact (decide_no_panic spec_widths spec_defaults spec_table eq_refl). Qed.
