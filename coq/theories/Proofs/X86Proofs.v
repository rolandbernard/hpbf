(** * X86Proofs.v — the symbolic evaluator of [X86.v] agrees with the machine modulo 2^w, hence
    code that [form_ok] accepts computes the instruction's value and changes nothing else (C03). *)
From Coq Require Import ZArith List Bool Lia Zdiv Setoid.
From HPBF Require Import IO Expr BC BCWf X86 CellProofs ExprProofs MachineProofs X86CallProofs.
Import ListNotations.
Open Scope Z_scope.
#[local] Existing Instances eqm_setoid Zplus_eqm Zminus_eqm Zmult_eqm Zopp_eqm.
Local Arguments Z.mul : simpl never.
Local Arguments Z.add : simpl never.
Local Arguments Z.sub : simpl never.
Local Arguments Z.pow : simpl never.
Local Arguments Z.modulo : simpl never.

Definition no_memzero (l : loc) : bool := match l with MemZero _ => false | _ => true end.

Section Sound.
Variable w : Z.
Hypothesis Hw : 0 <= w <= 64.
Let M := 2 ^ w.
Notation "a == b" := (eqm M a b) (at level 70).

Lemma Hw0 : 0 <= w. Proof. exact (proj1 Hw). Qed.
Lemma M_pos : 0 < M. Proof. apply Z.pow_pos_nonneg; lia. Qed.

Lemma mod_sz : forall sz x, w <= sz -> x mod 2 ^ sz == x.
Proof. intros sz x L. exact (mod_mod_pow2 w sz x (conj Hw0 L)). Qed.

Lemma size_ok_cases : forall sz, size_ok sz = true -> sz = 8 \/ sz = 16 \/ sz = 32 \/ sz = 64.
Proof using Hw. (* needs neither [w] nor its bound; outside the section it takes both, like its neighbours *)
  exact size_ok_true.
Qed.

(** the valuation of atoms: the initial machine state *)
Variable st0 : xst.
Definition rho (a : Z) : Z :=
  let m := a mod 4 in
  if m =? 1 then xr st0 ((a - 1) / 4)
  else if m =? 2 then xc st0 ((a - 2) / 4)
  else if m =? 3 then xs st0 ((a - 3) / 4) else 0.

Lemma atom_decode : forall k m, 0 <= m < 4 -> (4 * k + m) mod 4 = m /\ (4 * k + m - m) / 4 = k.
Proof.
  intros k m Hm. split.
  - rewrite Z.add_comm, Z.mul_comm, Z_mod_plus_full. apply Z.mod_small. exact Hm.
  - replace (4 * k + m - m) with (k * 4) by lia. apply Z.div_mul. discriminate.
Qed.

Lemma rho_reg : forall r, rho (areg r) = xr st0 r.
Proof. intros r. unfold rho, areg. destruct (atom_decode r 1) as [-> ->]; [lia|reflexivity]. Qed.
Lemma rho_cell : forall k, rho (acell k) = xc st0 k.
Proof. intros k. unfold rho, acell. destruct (atom_decode k 2) as [-> ->]; [lia|reflexivity]. Qed.
Lemma rho_slot : forall t, rho (aslot t) = xs st0 t.
Proof. intros t. unfold rho, aslot. destruct (atom_decode t 3) as [-> ->]; [lia|reflexivity]. Qed.

Definition ev (e : expr) : Z := eval w e rho.

Lemma ev_add : forall a b, ev (e_add w a b) == ev a + ev b.
Proof. intros. apply (eval_add w Hw0). Qed.
Lemma ev_mul : forall a b, ev (e_mul w a b) == ev a * ev b.
Proof. intros. apply (eval_mul w Hw0). Qed.
Lemma ev_neg : forall a, ev (e_neg w a) == - ev a.
Proof. intros. apply (eval_neg w Hw0). Qed.
Lemma ev_var : forall a, ev (e_var a) == rho a.
Proof. intros. apply (eval_var w Hw0). Qed.
Lemma ev_const : forall c, ev (e_val (c mod 2 ^ w)) == c.
Proof. intros c. unfold ev. rewrite (eval_val w Hw0). apply mod_sz. lia. Qed.

(** in the shape [arith_sound] and [two_value] ask of an operation *)
Lemma add_den : forall a b x y, ev a == x -> ev b == y -> ev (e_add w a b) == x + y.
Proof. intros a b x y X Y. rewrite ev_add, X, Y. reflexivity. Qed.
Lemma sub_den : forall a b x y, ev a == x -> ev b == y -> ev (e_add w a (e_neg w b)) == x - y.
Proof. intros a b x y X Y. rewrite ev_add, ev_neg, X, Y. reflexivity. Qed.
Lemma mul_den : forall a b x y, ev a == x -> ev b == y -> ev (e_mul w a b) == x * y.
Proof. intros a b x y X Y. rewrite ev_mul, X, Y. reflexivity. Qed.

Definition agrees (st : xst) (s : sst) : Prop :=
  (forall r, xr st r == ev (sget_r s r)) /\ (forall k, xc st k == ev (sget_c s k)) /\ (forall t, xs st t == ev (sget_s s t)).

Lemma agrees0 : agrees st0 sst0.
Proof.
  split; [|split]; intros x; unfold sget_r, sget_c, sget_s, sst0; cbn [sr sc ss alook]; rewrite ev_var;
    [rewrite rho_reg|rewrite rho_cell|rewrite rho_slot]; reflexivity.
Qed.

Lemma sread_sound : forall st s o v, agrees st s -> sread w s o = Some v -> xread st o == ev v.
Proof.
  intros st s o v (AR & AC & AS) H. destruct o as [r sz|k|t|c]; cbn [sread xread] in *.
  - destruct (size_ok sz && (w <=? sz)) eqn:E; [|discriminate]. injection H as <-.
    apply andb_prop in E. destruct E as [_ E]. apply Z.leb_le in E. rewrite (mod_sz sz _ E). apply AR.
  - injection H as <-. apply AC.
  - injection H as <-. apply AS.
  - injection H as <-. symmetry. apply ev_const.
Qed.

Lemma agrees_upd : forall (f : Z -> Z) (l : amap) (atom : Z -> Z) k v x,
  (forall a, f a == ev (alook a l (e_var (atom a)))) -> x == ev v ->
  forall a, upd f k x a == ev (alook a ((k, v) :: l) (e_var (atom a))).
Proof.
  intros f l atom k v x A XV a. cbn [alook]. unfold upd. rewrite (Z.eqb_sym a k).
  destruct (k =? a); [exact XV|apply A].
Qed.

Lemma swrite_sound : forall st s o v cs s' x, agrees st s -> swrite w s o v cs = Some s' ->
  x == ev v -> (forall c, cs = Some c -> x = c) -> agrees (xwrite w st o x) s'.
Proof.
  intros st s o v cs s' x (AR & AC & AS) H XV XC. destruct o as [r sz|k|t|c]; cbn [swrite xwrite] in *.
  - destruct (size_ok sz && (w <=? sz)) eqn:E.
    + injection H as <-. apply andb_prop in E. destruct E as [_ E]. apply Z.leb_le in E.
      split; [|split]; cbn [xr xc xs]; [|exact AC|exact AS]. apply (agrees_upd _ _ areg); [exact AR|].
      (* 64 and 32 bits replace the register, 16 and 8 keep its upper part *)
      destruct (sz =? 64) eqn:S64; [apply Z.eqb_eq in S64; rewrite (mod_sz 64 x) by lia; exact XV|].
      destruct (sz =? 32) eqn:S32; [apply Z.eqb_eq in S32; rewrite (mod_sz 32 x) by lia; exact XV|].
      rewrite (mod_sz sz (xr st r) E), (mod_sz sz x E), XV, Z.sub_diag. reflexivity.
    + destruct cs as [c|]; [|discriminate].
      destruct ((sz =? 32) && (0 <=? c) && (c <? 2 ^ 32)) eqn:C; [|discriminate]. injection H as <-.
      apply andb_prop in C. destruct C as [C C3]. apply andb_prop in C. destruct C as [C1 C2].
      apply Z.eqb_eq in C1. apply Z.leb_le in C2. apply Z.ltb_lt in C3. subst sz.
      split; [|split]; cbn [xr xc xs]; [|exact AC|exact AS]. apply (agrees_upd _ _ areg); [exact AR|].
      cbn [Z.eqb Pos.eqb]. rewrite (XC c eq_refl), Z.mod_small by lia. symmetry. apply ev_const.
  - injection H as <-. split; [|split]; cbn [xr xc xs]; [exact AR| |exact AS].
    apply (agrees_upd _ _ acell); [exact AC|]. rewrite (mod_sz w x) by lia. exact XV.
  - injection H as <-. split; [|split]; cbn [xr xc xs]; [exact AR|exact AC|].
    apply (agrees_upd _ _ aslot); [exact AS|]. rewrite (mod_sz 64 x) by lia. exact XV.
  - discriminate.
Qed.

(** an instruction that writes to [d] the operation [g] on what it reads from [s1] and [s2], the
    symbolic operation [f] standing for [g]; [inc], [dec] and the three-operand [imul] are the
    two-operand forms with an immediate as second source *)
Lemma arith_sound : forall (f : expr -> expr -> expr) (g : Z -> Z -> Z),
  (forall a b x y, ev a == x -> ev b == y -> ev (f a b) == g x y) ->
  forall st s d s1 s2 s', agrees st s ->
  match sread w s s1, sread w s s2 with
  | Some a, Some b => swrite w s d (f a b) None
  | _, _ => None
  end = Some s' ->
  agrees (xwrite w st d (g (xread st s1) (xread st s2))) s'.
Proof.
  intros f g FG st s d s1 s2 s' A H.
  destruct (sread w s s1) as [a|] eqn:R1; [|discriminate]. destruct (sread w s s2) as [b|] eqn:R2; [|discriminate].
  apply (swrite_sound st s d (f a b) None s' _ A H); [|discriminate].
  symmetry. apply FG; symmetry; [exact (sread_sound _ _ _ _ A R1)|exact (sread_sound _ _ _ _ A R2)].
Qed.

Lemma sstep_sound : forall st s i s', agrees st s -> sstep w s i = Some s' -> agrees (xstep w st i) s'.
Proof.
  intros st s i s' A H. destruct i as [d src|d src|d src|d|d|d src|d src c|d b idx disp]; cbn [sstep xstep] in *.
  - destruct (sread w s src) as [v|] eqn:RS; [|discriminate].
    eapply swrite_sound; [exact A|exact H|apply (sread_sound _ _ _ _ A RS)|].
    intros c Hc. destruct src; try discriminate. injection Hc as <-. reflexivity.
  - exact (arith_sound _ _ add_den st s d d src s' A H).
  - exact (arith_sound _ _ sub_den st s d d src s' A H).
  - exact (arith_sound _ _ add_den st s d d (XImm 1) s' A H).
  - exact (arith_sound _ _ sub_den st s d d (XImm 1) s' A H).
  - exact (arith_sound _ _ mul_den st s d d src s' A H).
  - exact (arith_sound _ _ mul_den st s d src (XImm c) s' A H).
  - eapply swrite_sound; [exact A|exact H| |discriminate]. destruct A as (AR & _ & _).
    rewrite !ev_add, ev_const, <- (AR b). destruct idx as [x|]; [rewrite <- (AR x)|]; reflexivity.
Qed.

Lemma srun_sound : forall code st s s', agrees st s -> srun w code s = Some s' -> agrees (xrun w code st) s'.
Proof.
  induction code as [|i code IH]; intros st s s' A H; cbn [srun xrun fold_left] in *.
  - injection H as <-. exact A.
  - destruct (sstep w s i) as [s1|] eqn:S; [|discriminate].
    apply (IH (xstep w st i) s1 s' (sstep_sound _ _ _ _ A S) H).
Qed.

Lemma part_eqb_eq : forall a b, part_eqb a b = true -> a = b.
Proof.
  induction a as [|[c vs] a IH]; intros [|[c' vs'] b] H; cbn [part_eqb] in H; try discriminate; [reflexivity|].
  apply andb_prop in H. destruct H as [H H3]. apply andb_prop in H. destruct H as [H1 H2].
  apply Z.eqb_eq in H1. apply list_eqb_eq in H2. subst. f_equal. apply IH. exact H3.
Qed.

Lemma den_sortvars : forall r e, den r (map (fun p => (fst p, sort_z (snd p))) e) = den r e.
Proof.
  intros r e. induction e as [|[c vs] e IH]; [reflexivity|]. cbn [map fst snd]. unfold den in *. cbn [fold_right].
  rewrite IH. unfold dpart. cbn [fst snd]. rewrite (mon_perm r _ _ (sort_z_perm vs)). reflexivity.
Qed.

Lemma canon_sound : forall e, ev (canon w e) == ev e.
Proof.
  intros e. unfold ev, canon. rewrite (eval_normalize w Hw0), !(eval_den w Hw0).
  rewrite (den_perm rho _ _ (sort_parts_perm _)), den_sortvars. reflexivity.
Qed.

Lemma same_poly_sound : forall a b, same_poly w a b = true -> ev a == ev b.
Proof.
  intros a b H. unfold same_poly in H. apply part_eqb_eq in H.
  rewrite <- (canon_sound a), <- (canon_sound b), H. reflexivity.
Qed.

Definition xval (st : xst) (l : xloc) : Z :=
  match l with LReg r => xr st r | LCell k => xc st k | LSlot t => xs st t end.

Lemma alook_absent : forall k l d, ~ List.In k (map fst l) -> alook k l d = d.
Proof.
  intros k l d. induction l as [|[k' v] l IH]; intros N; [reflexivity|]. cbn [alook].
  destruct (k' =? k) eqn:E; [apply Z.eqb_eq in E; subst; exfalso; apply N; left; reflexivity|].
  apply IH. intros HI. apply N. right. exact HI.
Qed.

Lemma xloc_eqb_eq : forall a b, xloc_eqb a b = true -> a = b.
Proof. intros [x|x|x] [y|y|y] H; cbn in H; try discriminate; apply Z.eqb_eq in H; subst; reflexivity. Qed.

Lemma xloc_eqb_neq : forall a b, b <> a -> xloc_eqb a b = false.
Proof. intros a b N. destruct (xloc_eqb a b) eqn:E; [apply xloc_eqb_eq in E; congruence|reflexivity]. Qed.

(** the check [form_ok] makes on each of the three maps: a location that is written and not excused
    ([ok]) still holds its initial polynomial; one that is not written holds it anyway *)
Lemma unchanged : forall (l : amap) (atom : Z -> Z) (ok : Z -> bool) k,
  forallb (fun kv => ok (fst kv) || same_poly w (alook (fst kv) l (e_var (atom (fst kv)))) (e_var (atom (fst kv)))) l = true ->
  ok k = false -> ev (alook k l (e_var (atom k))) == rho (atom k).
Proof.
  intros l atom ok k H N. rewrite <- ev_var. destruct (in_dec Z.eq_dec k (map fst l)) as [HI|NI].
  - apply in_map_iff in HI. destruct HI as [[k' v] [E HI]]. cbn in E. subst k'.
    apply (proj1 (forallb_forall _ _) H) in HI. cbn [fst] in HI. rewrite N in HI. apply same_poly_sound. exact HI.
  - rewrite (alook_absent _ _ _ NI). reflexivity.
Qed.

(** a register no instruction names as destination keeps its exact value *)
Lemma xwrite_other_reg : forall st o v r, (match o with XReg r' _ => r' <> r | _ => True end) ->
  xr (xwrite w st o v) r = xr st r.
Proof.
  intros st o v r H. destruct o as [r' sz|k|t|c]; cbn [xwrite xr]; try reflexivity.
  unfold upd. destruct (r =? r') eqn:E; [apply Z.eqb_eq in E; subst; contradiction|reflexivity].
Qed.

Lemma xstep_keeps : forall st i r, (match dest_reg i with Some r' => r' <> r | None => True end) ->
  xr (xstep w st i) r = xr st r.
Proof.
  intros st i r H. destruct i as [d src|d src|d src|d|d|d src|d src c|d b idx disp]; cbn [xstep]; apply xwrite_other_reg.
  8: exact H. (* XLea *)
  all: destruct d; exact H.
Qed.

Lemma xrun_keeps : forall code st r, pinned r = true -> keeps_pinned code = true -> xr (xrun w code st) r = xr st r.
Proof.
  induction code as [|i code IH]; intros st r P K; [reflexivity|]. cbn [xrun fold_left]. fold (xrun w code (xstep w st i)).
  cbn [keeps_pinned forallb] in K. apply andb_prop in K. destruct K as [K1 K2].
  rewrite (IH _ r P K2). apply xstep_keeps. destruct (dest_reg i) as [r'|]; [|exact I].
  intros E. subst r'. rewrite P in K1. discriminate.
Qed.

Theorem form_ok_sound : forall i live code dst want,
  form_ok w i live code = true -> form_spec w i = Some (dst, want) ->
  (forall r, pinned r = true -> xr (xrun w code st0) r = xr st0 r) /\
  xval (xrun w code st0) dst == ev want /\
  (forall k, LCell k <> dst -> xc (xrun w code st0) k == xc st0 k) /\
  (forall t, LSlot t <> dst -> xs (xrun w code st0) t == xs st0 t) /\
  (forall r, LReg r <> dst -> may_clobber live r = false -> xr (xrun w code st0) r == xr st0 r).
Proof.
  intros i live code dst want H SP. unfold form_ok in H. rewrite SP in H.
  destruct (srun w code sst0) as [s|] eqn:SR; [|discriminate].
  destruct (srun_sound code st0 sst0 s agrees0 SR) as (AR & AC & AS).
  apply andb_prop in H. destruct H as [HP H].
  apply andb_prop in H. destruct H as [H HR]. apply andb_prop in H. destruct H as [H HS].
  apply andb_prop in H. destruct H as [HD HC].
  split; [intros r P; apply xrun_keeps; assumption|].
  split; [|split; [|split]].
  - apply same_poly_sound in HD. rewrite <- HD. destruct dst as [r|k|t]; cbn [xval]; [apply AR|apply AC|apply AS].
  - intros k N. rewrite (AC k), <- rho_cell. apply (unchanged (sc s) acell (fun k => xloc_eqb dst (LCell k)) k HC). apply xloc_eqb_neq. exact N.
  - intros t N. rewrite (AS t), <- rho_slot. apply (unchanged (ss s) aslot (fun t => xloc_eqb dst (LSlot t)) t HS). apply xloc_eqb_neq. exact N.
  - intros r N MC. rewrite (AR r), <- rho_reg. apply (unchanged (sr s) areg (fun r => xloc_eqb dst (LReg r) || may_clobber live r) r HR).
    rewrite (xloc_eqb_neq _ _ N), MC. reflexivity.
Qed.

Definition loc_val (l : loc) : Z :=
  match l with
  | Imm c => c
  | _ => match home l with Some h => xval st0 h | None => 0 end
  end.

Lemma loc_expr_val : forall l ex, loc_expr w l = Some ex -> no_memzero l = true /\ ev ex == loc_val l.
Proof.
  intros l ex H. unfold loc_expr, loc_val in *. destruct l as [k|k|t|c]; try discriminate; (split; [reflexivity|]).
  - cbn [home] in *. injection H as <-. rewrite ev_var, rho_cell. reflexivity.
  - destruct (home (Tmp t)) as [[r|k|t']|]; try discriminate; injection H as <-; rewrite ev_var;
      [rewrite rho_reg|rewrite rho_cell|rewrite rho_slot]; reflexivity.
  - injection H as <-. apply ev_const.
Qed.

(** the three-operand shape of [form_spec] *)
Lemma two_value : forall d a b (f : expr -> expr -> expr) (g : Z -> Z -> Z) dst want,
  (forall ea eb x y, ev ea == x -> ev eb == y -> ev (f ea eb) == g x y) ->
  match home d, loc_expr w a, loc_expr w b with
  | Some h, Some ea, Some eb => Some (h, f ea eb)
  | _, _, _ => None
  end = Some (dst, want) ->
  (home d = Some dst /\ ev want == g (loc_val a) (loc_val b)) /\ no_memzero a = true /\ no_memzero b = true.
Proof.
  intros d a b f g dst want FG H. destruct (home d) as [h|]; [|discriminate].
  destruct (loc_expr w a) as [ea|] eqn:EA; [|discriminate]. destruct (loc_expr w b) as [eb|] eqn:EB; [|discriminate].
  injection H as <- <-. destruct (loc_expr_val a ea EA) as [PA VA]. destruct (loc_expr_val b eb EB) as [PB VB]. auto.
Qed.

(** the expected polynomial is the arithmetic of the bytecode instruction on the operand values *)
Theorem form_spec_value : forall i dst want, form_spec w i = Some (dst, want) ->
  match i with
  | Add d a b => (home d = Some dst /\ ev want == loc_val a + loc_val b) /\ no_memzero a = true /\ no_memzero b = true
  | Sub d a b => (home d = Some dst /\ ev want == loc_val a - loc_val b) /\ no_memzero a = true /\ no_memzero b = true
  | Mul d a b => (home d = Some dst /\ ev want == loc_val a * loc_val b) /\ no_memzero a = true /\ no_memzero b = true
  | Copy d a => (home d = Some dst /\ ev want == loc_val a) /\ no_memzero a = true
  | _ => False
  end.
Proof.
  intros i dst want H. unfold form_spec in H. destruct i as [| | | | | | |d a b|d a b|d a b|d a]; try discriminate.
  - exact (two_value d a b _ Z.add _ _ add_den H).
  - exact (two_value d a b _ Z.sub _ _ sub_den H).
  - exact (two_value d a b _ Z.mul _ _ mul_den H).
  - destruct (home d) as [h|]; [|discriminate]. destruct (loc_expr w a) as [ea|] eqn:EA; [|discriminate].
    injection H as <- <-. destruct (loc_expr_val a ea EA) as [PA VA]. auto.
Qed.

End Sound.

(** one arithmetic bytecode instruction is simulated by its machine code.
    [Rx]: the machine state represents the bytecode state modulo 2^w — tape cells at their offset
    from the tape pointer, temporaries in their register or stack slot. *)
Section Simulates.
Variable w : Z.
Hypothesis Hw : 0 <= w <= 64.
Notation "a == b" := (eqm (2 ^ w) a b) (at level 70).

Definition tmp_home (t : Z) : option xloc := home (Tmp t).

Definition Rx (keep : Z -> bool) (s : bcst) (st : xst) : Prop :=
  (forall k, xc st k == bc_mem s k) /\
  (forall t h, 0 <= t -> keep t = true -> tmp_home t = Some h -> xval st h == tget (bc_tmps s) t).

(** without read-and-clear operands the interpreter's two operand orders coincide *)
Lemma binop_pure : forall op s d a b, no_memzero a = true -> no_memzero b = true ->
  bc_binop w op s d a b = bc_write s d (op (fst (bc_read w s a)) (fst (bc_read w s b))).
Proof.
  intros op s d a b NA NB. unfold bc_binop.
  destruct a as [ka|ka|ta|ca]; try discriminate; destruct b as [kb|kb|tb|cb]; try discriminate;
    destruct (loc_eqb d _); reflexivity.
Qed.

Lemma home_tmp : forall t, 0 <= t ->
  home (Tmp t) = Some (match tmp_reg t with Some r => LReg r | None => LSlot t end).
Proof. intros t T. cbn [home]. rewrite (proj2 (Z.ltb_ge t 0) T). destruct (tmp_reg t); reflexivity. Qed.

Lemma loc_val_read : forall keep s st l, Rx keep s st -> no_memzero l = true ->
  (forall t, l = Tmp t -> 0 <= t /\ keep t = true) ->
  loc_val st l == fst (bc_read w s l).
Proof.
  intros keep s st l [RC RT] NM KT. destruct l as [k|k|t|c]; try discriminate; cbn [bc_read fst loc_val].
  - apply RC.
  - destruct (KT t eq_refl) as [T0 KE]. rewrite (home_tmp t T0). apply (RT t _ T0 KE (home_tmp t T0)).
  - reflexivity.
Qed.

Lemma tmp_reg_inj : forall t t' r, 0 <= t -> 0 <= t' -> tmp_reg t = Some r -> tmp_reg t' = Some r -> t = t'.
Proof.
  intros t t' r T T' H H'. unfold tmp_reg in *.
  set (regs := [12; 13; 14; 15; 6; 7; 2; 8; 9; 10; 11]) in *.
  assert (ND : NoDup regs) by (subst regs; repeat constructor; cbn [List.In]; lia).
  assert (L : (Z.to_nat t < length regs)%nat) by (apply nth_error_Some; rewrite H; discriminate).
  pose proof (proj1 (NoDup_nth_error _) ND (Z.to_nat t) (Z.to_nat t') L (eq_trans H (eq_sym H'))) as E. lia.
Qed.

(** distinct bytecode locations have distinct homes *)
Lemma home_inj : forall d l h, home d = Some h -> home l = Some h -> loc_eqb d l = true.
Proof.
  intros d l h D L.
  destruct d as [k| |t|]; try discriminate D; destruct l as [k'| |t'|]; try discriminate L; cbn [home loc_eqb] in *.
  - injection D as <-. injection L as ->. apply Z.eqb_refl.
  - injection D as <-. destruct (t' <? 0); [discriminate|]. destruct (tmp_reg t'); discriminate.
  - injection L as <-. destruct (t <? 0); [discriminate|]. destruct (tmp_reg t); discriminate.
  - destruct (Z.ltb_spec t 0) as [|T]; [discriminate|]. destruct (Z.ltb_spec t' 0) as [|T']; [discriminate|].
    rewrite <- D in L.
    destruct (tmp_reg t) as [r|] eqn:R; destruct (tmp_reg t') as [r'|] eqn:R'; try discriminate; injection L as L.
    + subst r'. rewrite (tmp_reg_inj t t' r T T' R R'). apply Z.eqb_refl.
    + subst t'. apply Z.eqb_refl.
Qed.

Lemma loc_eqb_eq : forall a b, loc_eqb a b = true -> a = b.
Proof. intros [x|x|x|x] [y|y|y|y] H; try discriminate; apply Z.eqb_eq in H; subst; reflexivity. Qed.

Lemma mem_after_write : forall s d v k, dst_ok d = true ->
  bc_mem (bc_write s d v) k = if loc_eqb d (Mem k) then v else bc_mem s k.
Proof.
  intros s d v k D. destruct d as [k'|k'|t|c]; try discriminate; cbn [bc_write loc_eqb].
  - unfold bc_mem, bc_set_mem. cbn [bc_tape bc_ptr]. rewrite tget_tset.
    destruct (k' =? k) eqn:E.
    + apply Z.eqb_eq in E. subst. rewrite Z.eqb_refl. reflexivity.
    + apply Z.eqb_neq in E. destruct (bc_ptr s + k' =? bc_ptr s + k) eqn:E2; [apply Z.eqb_eq in E2; lia|reflexivity].
  - reflexivity.
Qed.

Lemma tmp_after_write : forall s d v t,
  tget (bc_tmps (bc_write s d v)) t = if loc_eqb d (Tmp t) then v else tget (bc_tmps s) t.
Proof.
  intros s d v t. destruct d as [k'|k'|t'|c]; cbn [bc_write loc_eqb]; try reflexivity.
  unfold bc_set_tmp. cbn [bc_tmps]. rewrite tget_tset. reflexivity.
Qed.

(** which temporaries the machine state still represents after the instruction: the destination,
    and those that were represented and whose register the code may not clobber *)
Definition keep_after (keep : Z -> bool) (live : Z) (d : loc) (t : Z) : bool :=
  loc_eqb d (Tmp t) ||
  (keep t && match tmp_reg t with Some r => negb (may_clobber live r) | None => true end).

Theorem form_simulates : forall i live code keep s st d (op : Z -> Z -> Z) (a b : option loc),
  form_ok w i live code = true ->
  (* the instruction, its arithmetic and its operands *)
  (match i with
   | Add d' a' b' => d = d' /\ a = Some a' /\ b = Some b' /\ op = (fun x y => x + y)
   | Sub d' a' b' => d = d' /\ a = Some a' /\ b = Some b' /\ op = (fun x y => x - y)
   | Mul d' a' b' => d = d' /\ a = Some a' /\ b = Some b' /\ op = (fun x y => x * y)
   | Copy d' a' => d = d' /\ a = Some a' /\ b = None /\ op = (fun x _ => x)
   | _ => False
   end) ->
  dst_ok d = true -> (forall t, d = Tmp t -> 0 <= t) ->
  (forall l t, (a = Some l \/ b = Some l) -> l = Tmp t -> 0 <= t /\ keep t = true) ->
  Rx keep s st ->
  forall v, v == op (match a with Some l => fst (bc_read w s l) | None => 0 end)
                    (match b with Some l => fst (bc_read w s l) | None => 0 end) ->
  Rx (keep_after keep live d) (bc_write s d v) (xrun w code st).
Proof.
  intros i live code keep s st d op a b OK SHAPE DOK DT SRC R v HV.
  destruct (form_spec w i) as [[dst want]|] eqn:SP; [|unfold form_ok in OK; rewrite SP in OK; discriminate].
  destruct (form_ok_sound w Hw st i live code dst want OK SP) as (_ & V & CU & SU & RU).
  pose proof (form_spec_value w Hw st i dst want SP) as FV.
  assert (RD : forall l, a = Some l \/ b = Some l -> no_memzero l = true -> loc_val st l == fst (bc_read w s l))
    by (intros l IN P; apply (loc_val_read keep s st l R P); intros t E; exact (SRC l t IN E)).
  assert (HD : home d = Some dst /\ xval (xrun w code st) dst == v).
  { rewrite V, HV. destruct i as [| | | | | | |d' a' b'|d' a' b'|d' a' b'|d' a']; try contradiction;
      destruct SHAPE as (-> & -> & -> & ->).
    1-3: destruct FV as ([HH FV] & PA & PB); split; [exact HH|].
    1-3: rewrite FV, (RD a' (or_introl eq_refl) PA), (RD b' (or_intror eq_refl) PB); reflexivity.
    (* Copy *) destruct FV as ([HH FV] & PA). split; [exact HH|]. rewrite FV. exact (RD a' (or_introl eq_refl) PA). }
  destruct HD as [HH HDV]. destruct R as [RC RT].
  split.
  - intros k. rewrite (mem_after_write s d v k DOK). destruct (loc_eqb d (Mem k)) eqn:E.
    + apply loc_eqb_eq in E. subst d. injection HH as <-. exact HDV.
    + rewrite (CU k); [apply RC|]. intros <-. rewrite (home_inj d (Mem k) _ HH eq_refl) in E. discriminate.
  - intros t h T0 KA HT. unfold tmp_home in HT. rewrite (tmp_after_write s d v t). unfold keep_after in KA.
    destruct (loc_eqb d (Tmp t)) eqn:E.
    + apply loc_eqb_eq in E. subst d. rewrite HT in HH. injection HH as <-. exact HDV.
    + cbn [orb] in KA. apply andb_prop in KA. destruct KA as [KE KC].
      assert (NE : h <> dst) by (intros ->; rewrite (home_inj d (Tmp t) _ HH HT) in E; discriminate).
      rewrite <- (RT t h T0 KE HT).
      rewrite (home_tmp t T0) in HT. destruct (tmp_reg t) as [r|] eqn:TR; injection HT as <-; cbn [xval].
      * apply RU; [exact NE|apply negb_true_iff; exact KC].
      * apply SU. exact NE.
Qed.
End Simulates.
