(** * BCRawProofs.v — the runs of [BCRaw.v] never dereference outside the buffer and behave like an
    unbounded zero-initialised array: the one-sided probe protocol of the checked interpreter and
    JIT (C06), and unchecked execution inside a region the caller made accessible (C10). *)
From Coq Require Import ZArith List Bool Lia.
From HPBF Require Import Tape TapeProofs BCRaw.
Import ListNotations.
Open Scope Z_scope.

(** the logical cells [lo .. hi - 1] are inside the buffer (the window of the checked protocol, the
    pre-allocated region of the unchecked mode) *)
Definition Within (t : rtape) (s : tspec) (base lo hi : Z) : Prop :=
  Inv t s base /\ 0 <= lo + base /\ hi + base <= t_size t.

Lemma get_within : forall t s base lo hi k, Within t s base lo hi ->
  - MAG <= k <= MAG -> lo <= s_pos s + k < hi -> r_get t k = TOk (s_cells s (s_pos s + k)).
Proof.
  intros t s base lo hi k (HI & L & U) Hk Hin.
  rewrite <- (read_spec t s base HI k Hk). unfold r_get, t_read. cbv zeta.
  change (t_ptr t k <? t_size t) with (t_check t k). rewrite (check_spec t s base HI k Hk).
  destruct (in_range_spec 0 (s_pos s + k + base) (t_size t)); [reflexivity|lia].
Qed.

Lemma set_within : forall t s base lo hi k v, Within t s base lo hi ->
  - MAG <= k <= MAG -> lo <= s_pos s + k < hi ->
  yields (fun t' => Within t' (s_store s (s_pos s + k) v) base lo hi) (r_set t k v).
Proof.
  intros t s base lo hi k v (HI & L & U) Hk Hin.
  apply (yields_impl (raw_write_spec t s base HI k v Hk ltac:(lia))).
  intros t' [Hsz HI']. rewrite <- Hsz in U. exact (conj HI' (conj L U)).
Qed.

(** the matches by which [r_run] puts an observation [o] in front of the log of the rest *)
Lemma yields_log : forall o {l r}, yields (fun '(log, _) => vals_of log = l) r ->
  yields (fun '(log, _) => vals_of log = vals_of [o] ++ l)
    (match r with
     | TOk (vs, tf) => TOk (o :: vs, tf : rtape)
     | RawOob i => RawOob i | TooLarge => TooLarge | AllocFail => AllocFail
     end).
Proof. intros o l [[vs tf]|i| |] H; try exact H. destruct o; cbn; [f_equal|]; exact H. Qed.

Section Protocol.
Variable pol : policy.
Hypothesis HP : PolicyOK pol.
Variables mn mx : Z.
Hypothesis Hmn : - MAG <= mn <= 0.
Hypothesis Hmx : 0 <= mx < MAG.

(** the window [mn .. mx] around the current pointer is inside the buffer *)
Definition WInv (t : rtape) (s : tspec) (base : Z) : Prop :=
  Within t s base (s_pos s + mn) (s_pos s + (mx + 1)).

(** on a miss any request [a, b) that contains the probed cell will do ([mn, mx + 1) for the
    interpreter, the probed cell alone for the JIT): the other end of the window stays inside because
    the pointer moved away from it and growth never reduces the room on either side *)
Lemma probe_winv : forall t s base d ok a b, WInv t s base -> - MAG <= s_pos s + d <= MAG ->
  a <= (if d <? 0 then mn else mx) < b ->
  yields (fun t' => exists base', WInv t' (s_move s d) base')
    (if t_check (t_mov t d) (if d <? 0 then mn else mx) then TOk (t_mov t d)
     else t_make_accessible pol ok (t_mov t d) a b).
Proof.
  intros t s base d ok a b (HI & L & U) Hd Hp.
  pose proof (mov_inv t s base HI d Hd) as HI1.
  set (p := if d <? 0 then mn else mx) in *.
  assert (Hps : - MAG <= p <= MAG) by (unfold p; destruct (d <? 0); lia).
  assert (K : forall t' base', Inv t' (s_move s d) base' ->
              base <= base' /\ t_size t - base <= t_size t' - base' ->
              0 <= s_pos s + d + p + base' < t_size t' -> WInv t' (s_move s d) base').
  { unfold p. destruct (Z.ltb_spec d 0); intros t' base' HI' Hmono Hin;
      (split; [exact HI'|]); cbn [s_move s_pos]; lia. }
  destruct (t_check (t_mov t d) p) eqn:C.
  - exists base. apply (K _ _ HI1 (conj (Z.le_refl _) (Z.le_refl _))).
    rewrite (check_spec _ _ _ HI1 p Hps) in C. cbn [s_move s_pos t_mov t_size] in C |- *. lia.
  - apply (yields_impl (grow_spec pol ok (t_mov t d) (s_move s d) base a b HP HI1)).
    intros t' (base' & HI' & Hmono & La & Ub). exists base'. apply (K _ _ HI' Hmono).
    cbn [s_move s_pos] in La, Ub. lia.
Qed.

(** over a continuation, so that it is the [REnter] case of [run_safe] and, applied to [run_safe],
    [protocol_safe_from] *)
Lemma enter_step : forall ops,
  (forall allocs t s base, WInv t s base -> rops_ok mn mx ops (s_pos s) = true ->
     yields (fun '(log, _) => vals_of log = r_spec ops (s_cells s) (s_pos s)) (r_run pol mn mx ops allocs t)) ->
  forall allocs t s base, Inv t s base -> rops_ok mn mx ops (s_pos s) = true ->
    yields (fun '(log, _) => vals_of log = r_spec ops (s_cells s) (s_pos s)) (r_run pol mn mx (REnter :: ops) allocs t).
Proof.
  intros ops Hops allocs t s base HI OK. cbn [r_run].
  destruct (if grows _ _ _ then _ else _) as [ok allocs'].
  apply (yields_bind (grow_spec pol ok t s base mn (mx + 1) HP HI)).
  intros t' (base' & HI' & _ & LU). exact (Hops allocs' t' s base' (conj HI' LU) OK).
Qed.

Lemma run_safe : forall ops allocs t s base, WInv t s base -> rops_ok mn mx ops (s_pos s) = true ->
  yields (fun '(log, _) => vals_of log = r_spec ops (s_cells s) (s_pos s)) (r_run pol mn mx ops allocs t).
Proof.
  induction ops as [|op rest IH]; intros allocs t s base W OK; [reflexivity|].
  destruct op as [|d|d|d|k|k v|a b]; cbn [rops_ok] in OK; try discriminate.
  - exact (enter_step rest IH allocs t s base (proj1 W) OK).
  - (* RMov *) apply andb_prop in OK. destruct OK as [Sm OK]. apply small_spec in Sm. cbn [r_run r_spec].
    destruct (if grows _ _ _ then _ else _) as [ok allocs'].
    apply (yields_bind (probe_winv t s base d ok mn (mx + 1) W Sm ltac:(destruct (d <? 0); lia))).
    intros t' [base' W']. exact (yields_log (RProbe _) (IH allocs' t' _ base' W' OK)).
  - (* RMovJ *) apply andb_prop in OK. destruct OK as [Sm OK]. apply small_spec in Sm. cbn [r_run r_spec].
    destruct (if grows _ _ _ then _ else _) as [ok allocs'].
    apply (yields_bind (probe_winv t s base d ok _ _ W Sm (conj (Z.le_refl _) (Z.lt_succ_diag_r _)))).
    intros t' [base' W']. exact (yields_log (RProbe _) (IH allocs' t' _ base' W' OK)).
  - (* RGet *) apply andb_prop in OK. destruct OK as [Hk OK]. cbn [r_run r_spec].
    rewrite (get_within t s base _ _ k W ltac:(lia) ltac:(lia)).
    exact (yields_log (RVal _) (IH allocs t s base W OK)).
  - (* RSet *) apply andb_prop in OK. destruct OK as [Hk OK]. cbn [r_run r_spec].
    apply (yields_bind (set_within t s base _ _ k v W ltac:(lia) ltac:(lia))).
    intros t' W'. exact (IH allocs t' _ base W' OK).
Qed.

(** from any valid tape state, after the entry sequence (a context that is reused: whatever
    history of the tape API came before, [TapeProofs.run_inv] leaves [Inv]) *)
Theorem protocol_safe_from : forall ops allocs t s base, Inv t s base -> rops_ok mn mx ops (s_pos s) = true ->
  match r_run pol mn mx (REnter :: ops) allocs t with
  | TOk (log, _) => vals_of log = r_spec ops (s_cells s) (s_pos s)
  | RawOob _ => False
  | _ => True
  end.
Proof. intros ops. exact (enter_step ops (run_safe ops)). Qed.

Theorem protocol_safe : forall ops allocs, rops_ok mn mx ops 0 = true ->
  match r_run pol mn mx (REnter :: ops) allocs rtape0 with
  | TOk (log, _) => vals_of log = r_spec ops (fun _ => 0) 0
  | RawOob _ => False
  | _ => True
  end.
Proof. intros ops allocs. exact (protocol_safe_from ops allocs rtape0 spec0 0 inv0). Qed.

(** a reused context: some range [a, b) was made accessible before the program is entered *)
Theorem protocol_safe_reused : forall a b ops allocs, rops_ok mn mx ops 0 = true ->
  match r_run pol mn mx (RPre a b :: REnter :: ops) allocs rtape0 with
  | TOk (log, _) => vals_of log = r_spec ops (fun _ => 0) 0
  | RawOob _ => False
  | _ => True
  end.
Proof.
  intros a b ops allocs OK. cbn [r_run].
  destruct (if grows _ _ _ then _ else _) as [ok allocs'].
  apply (yields_bind (grow_spec pol ok rtape0 spec0 0 a b HP inv0)).
  intros t' (base' & HI' & _). exact (protocol_safe_from ops allocs' t' spec0 base' HI' OK).
Qed.
End Protocol.

Section Unchecked.
Variable pol : policy.
Hypothesis HP : PolicyOK pol.
Variable m : Z.

(** the cells [-m .. m] stay inside the buffer: nothing grows after the caller's request *)
Lemma urun_safe : forall ops allocs t s base, Within t s base (- m) (m + 1) -> uops_ok m ops (s_pos s) = true ->
  yields (fun '(log, _) => vals_of log = r_spec ops (s_cells s) (s_pos s)) (r_run pol 0 0 ops allocs t).
Proof.
  induction ops as [|op rest IH]; intros allocs t s base W OK; [reflexivity|].
  destruct op as [|d|d|d|k|k v|a b]; cbn [uops_ok] in OK; try discriminate; cbn [r_run r_spec].
  - (* RMovU *) apply andb_prop in OK. destruct OK as [Sm OK]. apply small_spec in Sm.
    exact (IH allocs (t_mov t d) _ base (conj (mov_inv t s base (proj1 W) d Sm) (proj2 W)) OK).
  - (* RGet *) apply andb_prop in OK. destruct OK as [Hk OK].
    apply andb_prop in Hk. destruct Hk as [Hk Ks]. apply small_spec in Ks.
    rewrite (get_within t s base _ _ k W Ks ltac:(lia)).
    exact (yields_log (RVal _) (IH allocs t s base W OK)).
  - (* RSet *) apply andb_prop in OK. destruct OK as [Hk OK].
    apply andb_prop in Hk. destruct Hk as [Hk Ks]. apply small_spec in Ks.
    apply (yields_bind (set_within t s base _ _ k v W Ks ltac:(lia))).
    intros t' W'. exact (IH allocs t' _ base W' OK).
Qed.

(** C10: the caller makes [-m .. m] accessible ([RPre]); after that only unprobed moves and raw
    accesses ([uops_ok] admits no [REnter] and no probed move, so nothing grows again) *)
Theorem unchecked_safe : forall ops allocs, uops_ok m ops 0 = true ->
  match r_run pol 0 0 (RPre (- m) (m + 1) :: ops) allocs rtape0 with
  | TOk (log, _) => vals_of log = r_spec ops (fun _ => 0) 0
  | RawOob _ => False
  | _ => True
  end.
Proof.
  intros ops allocs OK. cbn [r_run].
  destruct (if grows _ _ _ then _ else _) as [ok allocs'].
  apply (yields_bind (grow_spec pol ok rtape0 spec0 0 (- m) (m + 1) HP inv0)).
  intros t' (base' & HI' & _ & LU).
  exact (urun_safe ops allocs' t' spec0 base' (conj HI' LU) OK).
Qed.
End Unchecked.

(** The JIT's slow path is the protocol's growth request.  The machine code (theorem
    [C03_mov_template]) stores the index of the probed cell as the current offset, calls
    [make_accessible(0, 1)] and moves back by the probe offset; on the tape model that is
    [make_accessible(probe, probe + 1)] at the unmoved pointer — the request of
    [BCRaw.r_probe_jit]. *)
Lemma jit_slow_path : forall pol t s base p ok, Inv t s base -> - MAG <= p <= MAG -> - MAG <= s_pos s + p <= MAG ->
  match t_make_accessible pol ok (t_mov t p) 0 1, t_make_accessible pol ok t p (p + 1) with
  | TOk t1, TOk t2 => t_mov t1 (- p) = t2
  | TooLarge, TooLarge | AllocFail, AllocFail => True
  | _, _ => False
  end.
Proof.
  intros pol t s base p ok HI Hp Hq. unfold t_make_accessible.
  rewrite (signed_off _ _ _ (mov_inv t s base HI p Hq)), (signed_off _ _ _ HI).
  cbn [s_move s_pos t_mov t_size t_buf t_off].
  (* after this both calls compute the same [needed_below] and [needed_above] *)
  rewrite Z.add_0_r, (Z.add_shuffle0 (s_pos s) p base), (Z.add_assoc (s_pos s + base) p 1).
  destruct ((needed_below (s_pos s + base + p) =? 0)
            && (needed_above (s_pos s + base + p + 1) (t_size t) =? 0)).
  - (* both requests are already inside: the two moves cancel *)
    unfold t_mov. cbn [t_buf t_size t_off].
    rewrite wrap_wrap_add, <- Z.add_assoc, Z.add_opp_diag_r, Z.add_0_r.
    rewrite (inv_off _ _ _ HI), wrap_wrap, <- (inv_off _ _ _ HI). destruct t; reflexivity.
  - destruct (pol (t_size t) (needed_below (s_pos s + base + p))
                (needed_above (s_pos s + base + p + 1) (t_size t))) as [ns ab].
    destruct (SIZE_LIMIT <=? ns); [exact I|]. destruct (negb ok); [exact I|].
    unfold t_mov. cbn [t_buf t_size t_off]. f_equal.
    rewrite wrap_wrap_add, <- Z.add_assoc, wrap_wrap_add. f_equal. ring.
Qed.
