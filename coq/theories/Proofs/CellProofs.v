(** * CellProofs.v — the wrapping operations of [Cell.v] are arithmetic modulo [2^w] (property C14).
    [wpow] is the power; an odd [d] has the inverse [d ^ (2^(m-1) - 1)] modulo [2^m], through which
    [winv] and [wdiv] find the inverse and the least quotient; the conversions round-trip. *)

From Coq Require Import ZArith Bool Lia Zpow_facts Znumtheory.
From HPBF Require Import Cell.
Open Scope Z_scope.

Lemma pow2_pos : forall w, 0 <= w -> 0 < 2 ^ w.
Proof. intros. apply Z.pow_pos_nonneg; lia. Qed.

Lemma pow2_gt1 : forall w, 1 <= w -> 1 < 2 ^ w.
Proof. intros. apply Z.pow_gt_1; lia. Qed.

Lemma pow2_half : forall w, 1 <= w -> 2 ^ w = 2 * 2 ^ (w - 1).
Proof. intros. rewrite <- Z.pow_succ_r by lia. f_equal. lia. Qed.

Lemma pow2_le : forall a b, 0 <= a <= b -> 2 ^ a <= 2 ^ b.
Proof. intros. apply Z.pow_le_mono_r; lia. Qed.

Lemma pow2_lt : forall a b, 0 <= a < b -> 2 ^ a < 2 ^ b.
Proof. intros. apply Z.pow_lt_mono_r; lia. Qed.

Lemma mod_pow2_range : forall w x, 0 <= w -> 0 <= x mod 2 ^ w < 2 ^ w.
Proof. intros. apply Z.mod_pos_bound, pow2_pos. assumption. Qed.

Lemma mod_mod_pow2 : forall a b x, 0 <= a <= b -> (x mod 2 ^ b) mod 2 ^ a = x mod 2 ^ a.
Proof.
  intros a b x H. symmetry. apply Zmod_div_mod; try (apply pow2_pos; lia).
  exists (2 ^ (b - a)). rewrite <- Z.pow_add_r by lia. f_equal. lia.
Qed.

Lemma mod_pow2_scale : forall w s a, 0 <= s <= w ->
  (2 ^ s * a) mod 2 ^ w = 2 ^ s * (a mod 2 ^ (w - s)).
Proof.
  intros w s a Hs.
  pose proof (pow2_pos s ltac:(lia)). pose proof (pow2_pos (w - s) ltac:(lia)).
  rewrite <- Z.mul_mod_distr_l, <- Z.pow_add_r by lia. do 2 f_equal. lia.
Qed.

Lemma mul_pow2_mod : forall w s d y, 0 <= s <= w ->
  (y * (2 ^ s * d)) mod 2 ^ w = 2 ^ s * ((d * y) mod 2 ^ (w - s)).
Proof. intros. rewrite (Z.mul_comm y), <- Z.mul_assoc. apply mod_pow2_scale. assumption. Qed.

Lemma div_pow2_exact : forall s x, 0 <= s -> (2 ^ s * x) / 2 ^ s = x.
Proof. intros. rewrite Z.mul_comm. apply Z.div_mul. pose proof (pow2_pos s H). lia. Qed.

Lemma div2_odd : forall e, e = 2 * (e / 2) + (if Z.odd e then 1 else 0).
Proof. intros e. rewrite <- Zmod_odd. apply Z.div_mod. lia. Qed.

Lemma even_mod2 : forall e, Z.odd e = false -> e = 2 * (e / 2).
Proof. intros e H. pose proof (div2_odd e) as D. rewrite H in D. lia. Qed.

Lemma half_range : forall e b, 0 <= e < 2 * b -> 0 <= e / 2 < b /\ e / 2 <= e.
Proof. intros e b H. pose proof (div2_odd e). destruct (Z.odd e); lia. Qed.

Lemma is_odd_spec : forall a, is_odd a = Z.odd a.
Proof.
  intros a. unfold is_odd.
  change 1 with (Z.ones 1) at 1. rewrite Z.land_ones by lia.
  change (2 ^ 1) with 2. rewrite Zmod_odd. destruct (Z.odd a); reflexivity.
Qed.

Lemma wadd_range : forall w a b, 0 <= w -> 0 <= wadd w a b < 2 ^ w.
Proof. intros. apply mod_pow2_range. assumption. Qed.

Lemma wmul_range : forall w a b, 0 <= w -> 0 <= wmul w a b < 2 ^ w.
Proof. intros. apply mod_pow2_range. assumption. Qed.

Lemma wneg_range : forall w a, 0 <= w -> 0 <= wneg w a < 2 ^ w.
Proof. intros. apply mod_pow2_range. assumption. Qed.

Lemma wneg_spec : forall w a, 0 <= w -> wadd w (wneg w a) a = 0.
Proof.
  intros. unfold wadd, wneg. pose proof (pow2_pos w H).
  rewrite Z.add_mod_idemp_l, Z.add_opp_diag_l by lia. apply Z.mod_0_l. lia.
Qed.

Lemma wshr_spec : forall w a k, 0 <= k < w -> wshr w a k = a / 2 ^ k.
Proof.
  intros. unfold wshr. destruct (Z.ltb_spec k w); [|lia]. apply Z.shiftr_div_pow2. lia.
Qed.

Lemma wshr_big : forall w a k, w <= k -> wshr w a k = 0.
Proof. intros. unfold wshr. destruct (Z.ltb_spec k w); [lia|reflexivity]. Qed.

Lemma wshl_spec : forall w a k, 0 <= k < w -> wshl w a k = (a * 2 ^ k) mod 2 ^ w.
Proof.
  intros. unfold wshl. destruct (Z.ltb_spec k w); [|lia]. rewrite Z.shiftl_mul_pow2 by lia. reflexivity.
Qed.

Lemma wshl_big : forall w a k, w <= k -> wshl w a k = 0.
Proof. intros. unfold wshl. destruct (Z.ltb_spec k w); [lia|reflexivity]. Qed.

(** [exp.wrapping_shr(1)] in [wrapping_pow] *)
Lemma wshr1_half : forall w e, 1 <= w -> 0 <= e < 2 ^ w -> wshr w e 1 = e / 2.
Proof.
  intros w e Hw He. destruct (Z.eq_dec w 1) as [->|Hn].
  - rewrite wshr_big by lia. change (2 ^ 1) with 2 in He. symmetry. apply Z.div_small. lia.
  - rewrite wshr_spec by lia. reflexivity.
Qed.

(** [ONE.wrapping_shl(k).wrapping_add(NEG_ONE)] is the code's way of writing [2^k - 1]; [k] may
    equal the width, where the shift gives 0. *)
Lemma low_ones : forall w k, 0 <= k <= w ->
  wadd w (wshl w 1 k) (neg_one w) = 2 ^ k - 1.
Proof.
  intros w k Hk. unfold wadd, neg_one.
  pose proof (pow2_pos k ltac:(lia)) as Hp.
  destruct (Z.eq_dec k w) as [->|Hn].
  - rewrite wshl_big by lia. apply Z.mod_small. lia.
  - pose proof (pow2_lt k w ltac:(lia)) as Hlt.
    rewrite wshl_spec, Z.mul_1_l, (Z.mod_small (2 ^ k)) by lia.
    rewrite <- (Z_mod_plus_full _ (-1)), Z.mod_small; lia.
Qed.

Lemma wand_low_ones : forall w k a, 0 <= k <= w ->
  wand a (wadd w (wshl w 1 k) (neg_one w)) = a mod 2 ^ k.
Proof.
  intros w k a Hk. rewrite low_ones, Z.sub_1_r, <- Z.ones_equiv by lia.
  apply Z.land_ones. lia.
Qed.

Lemma tz_pos_nonneg : forall p, 0 <= tz_pos p.
Proof. induction p as [p IH|p IH|]; cbn [tz_pos]; lia. Qed.

Lemma tz_nonneg : forall w a, 0 <= w -> 0 <= tz w a.
Proof. intros w a Hw. destruct a; simpl; try lia. apply tz_pos_nonneg. Qed.

Lemma tz_spec : forall w a, 0 < a -> exists q, a = 2 ^ (tz w a) * q /\ Z.odd q = true /\ 0 < q.
Proof.
  intros w [|p|p] Ha; try lia. clear Ha. cbn [tz].
  induction p as [p _|p IH|].
  - exists (Zpos p~1). split; [symmetry; apply Z.mul_1_l|split; reflexivity].
  - destruct IH as (q & Hq & Ho). exists q. split; [|exact Ho].
    cbn [tz_pos]. rewrite Z.add_1_l, Z.pow_succ_r, <- Z.mul_assoc, <- Hq by apply tz_pos_nonneg.
    reflexivity.
  - exists 1. repeat split.
Qed.

Lemma tz_lt_width : forall w a, 0 < a < 2 ^ w -> tz w a < w.
Proof.
  intros w a Ha. destruct (tz_spec w a ltac:(lia)) as (q & Hq & _ & Hpos).
  apply Z.nle_gt. intros L. apply (Z.pow_le_mono_r 2) in L; [nia|lia].
Qed.

(** also for [a = 0], where [tz] is the width *)
Lemma tz_factor : forall w a k, 0 <= a -> 0 <= k <= tz w a -> exists q, a = 2 ^ k * q.
Proof.
  intros w a k Ha Hk. destruct (Z.eq_dec a 0) as [->|Hn]; [exists 0; ring|].
  destruct (tz_spec w a ltac:(lia)) as [q [Hq _]]. exists (2 ^ (tz w a - k) * q).
  rewrite Z.mul_assoc, <- Z.pow_add_r by lia.
  replace (k + (tz w a - k)) with (tz w a) by lia. exact Hq.
Qed.

Lemma pow_halve : forall b e, 0 <= e -> b ^ e = (if Z.odd e then b else 1) * (b * b) ^ (e / 2).
Proof.
  intros b e He. pose proof (Z.div_pos e 2 He ltac:(lia)).
  replace (if Z.odd e then b else 1) with (b ^ (if Z.odd e then 1 else 0))
    by (destruct (Z.odd e); [apply Z.pow_1_r|reflexivity]).
  rewrite <- Z.pow_2_r, <- Z.pow_mul_r, <- Z.pow_add_r, Z.add_comm by (destruct (Z.odd e); lia).
  f_equal. apply div2_odd.
Qed.

Lemma wpow_loop_spec : forall fuel w base e result,
  1 <= w -> 0 <= e < 2 ^ (Z.of_nat fuel) -> e < 2 ^ w -> 0 <= result < 2 ^ w ->
  wpow_loop fuel w base e result = (result * base ^ e) mod 2 ^ w.
Proof.
  induction fuel as [|f IH]; intros w base e result Hw He Hew Hr; cbn [wpow_loop].
  - assert (e = 0) as -> by (change (2 ^ Z.of_nat 0) with 1 in He; lia).
    rewrite Z.pow_0_r, Z.mul_1_r. symmetry. apply Z.mod_small, Hr.
  - destruct (Z.eqb_spec e 0) as [->|E0].
    + rewrite Z.pow_0_r, Z.mul_1_r. symmetry. apply Z.mod_small, Hr.
    + pose proof (pow2_pos w ltac:(lia)) as HM.
      rewrite Nat2Z.inj_succ, Z.pow_succ_r in He by lia. apply half_range in He.
      rewrite wshr1_half, is_odd_spec by lia.
      rewrite IH; try lia; [|destruct (Z.odd e); [apply wmul_range; lia|exact Hr]].
      (* one squaring of the base pays for halving the exponent *)
      unfold wmul. rewrite <- Z.mul_mod_idemp_r, <- Zpower_mod, Z.mul_mod_idemp_r by lia.
      rewrite (pow_halve base e) by lia. destruct (Z.odd e).
      * rewrite Z.mul_mod_idemp_l, Z.mul_assoc by lia. reflexivity.
      * rewrite Z.mul_1_l. reflexivity.
Qed.

Theorem wpow_spec : forall w b e, 1 <= w -> 0 <= e < 2 ^ w -> wpow w b e = (b ^ e) mod 2 ^ w.
Proof.
  intros w b e Hw He. unfold wpow.
  rewrite wpow_loop_spec; try lia.
  - rewrite Z.mul_1_l. reflexivity.
  - rewrite Z2Nat.id by lia. lia.
  - pose proof (pow2_gt1 w Hw). lia.
Qed.

(** [b] multiplied up [n] times by [wmul]: what [C14_wpow] compares the loop of [wpow] with *)
Fixpoint wpow_iter (w b : Z) (n : nat) : Z :=
  match n with O => 1 mod 2 ^ w | S n' => wmul w b (wpow_iter w b n') end.

Lemma wpow_iter_spec : forall w b n, 1 <= w -> wpow_iter w b n = (b ^ Z.of_nat n) mod 2 ^ w.
Proof.
  intros w b n Hw. pose proof (pow2_pos w ltac:(lia)).
  induction n as [|n IH]; [reflexivity|].
  cbn [wpow_iter]. rewrite IH. unfold wmul. rewrite Z.mul_mod_idemp_r by lia.
  rewrite Nat2Z.inj_succ, Z.pow_succ_r by lia. reflexivity.
Qed.

Theorem wpow_repeated_mul : forall w b e, 1 <= w -> 0 <= e < 2 ^ w ->
  wpow w b e = wpow_iter w b (Z.to_nat e).
Proof.
  intros. rewrite wpow_spec, wpow_iter_spec by lia. rewrite Z2Nat.id by lia. reflexivity.
Qed.

Lemma odd_pow2_one : forall m, 0 <= m -> forall d, Z.odd d = true ->
  exists t, d ^ (2 ^ m) = 1 + 2 * 2 ^ m * t.
Proof.
  intros m Hm. pattern m. apply natlike_ind; [ | | exact Hm]; clear m Hm.
  - intros d Hd. exists (d / 2). pose proof (div2_odd d) as D. rewrite Hd in D.
    rewrite Z.pow_1_r. lia.
  - intros x Hx IH d Hd. destruct (IH d Hd) as [t Ht]. exists (t + 2 ^ x * t * t).
    rewrite Z.pow_succ_r, (Z.mul_comm 2), Z.pow_mul_r, Ht, Z.pow_2_r by lia. ring.
Qed.

Lemma odd_inverse : forall m d, 1 <= m -> Z.odd d = true ->
  (d * d ^ (2 ^ (m - 1) - 1)) mod 2 ^ m = 1.
Proof.
  intros m d Hm Hd.
  pose proof (pow2_pos (m - 1) ltac:(lia)) as Hp.
  rewrite <- Z.pow_succ_r by lia. replace (Z.succ (2 ^ (m - 1) - 1)) with (2 ^ (m - 1)) by lia.
  destruct (odd_pow2_one (m - 1) ltac:(lia) d Hd) as [t Ht].
  rewrite Ht, <- pow2_half, Z.mul_comm, Z_mod_plus_full by exact Hm. apply Z.mod_small.
  pose proof (pow2_gt1 m Hm). lia.
Qed.

Lemma odd_cancel : forall m d a b, 1 <= m -> Z.odd d = true ->
  (d * a) mod 2 ^ m = (d * b) mod 2 ^ m -> a mod 2 ^ m = b mod 2 ^ m.
Proof.
  intros m d a b Hm Hd H.
  pose proof (pow2_pos m ltac:(lia)) as HM.
  set (i := d ^ (2 ^ (m - 1) - 1)).
  (* multiplying by the inverse [i] of [d] undoes multiplying by [d] *)
  assert (Hi : forall c, (i * ((d * c) mod 2 ^ m)) mod 2 ^ m = c mod 2 ^ m).
  { intros c. rewrite Z.mul_mod_idemp_r, Z.mul_assoc, (Z.mul_comm i), <- Z.mul_mod_idemp_l by lia.
    unfold i. rewrite odd_inverse, Z.mul_1_l by assumption. reflexivity. }
  rewrite <- (Hi a), <- (Hi b), H. reflexivity.
Qed.

(** the same for a divisor [2^s * d] with [d] odd: [s] bits of the modulus are lost *)
Lemma pow2_odd_cancel : forall w s d a b, 0 <= s < w -> Z.odd d = true ->
  (a * (2 ^ s * d)) mod 2 ^ w = (b * (2 ^ s * d)) mod 2 ^ w ->
  a mod 2 ^ (w - s) = b mod 2 ^ (w - s).
Proof.
  intros w s d a b Hs Hd H. rewrite !mul_pow2_mod in H by lia.
  apply Z.mul_reg_l in H; [|pose proof (pow2_pos s); lia].
  apply odd_cancel in H; [exact H|lia|exact Hd].
Qed.

(** and the quotient of [2^s * n] by it: [n] times the inverse of [d] modulo [2^(w-s)] *)
Lemma pow2_odd_quotient : forall w s d n, 0 <= s < w -> Z.odd d = true -> 0 <= 2 ^ s * n < 2 ^ w ->
  ((d ^ (2 ^ (w - s - 1) - 1) * n) mod 2 ^ (w - s) * (2 ^ s * d)) mod 2 ^ w = 2 ^ s * n.
Proof.
  intros w s d n Hs Hd Hn. pose proof (pow2_pos (w - s) ltac:(lia)).
  rewrite mul_pow2_mod, Z.mul_mod_idemp_r, Z.mul_assoc, <- Z.mul_mod_idemp_l by lia.
  rewrite odd_inverse, Z.mul_1_l, <- mod_pow2_scale by (lia || assumption).
  apply Z.mod_small. exact Hn.
Qed.

(** the power the code takes for an inverse modulo [2^m]; [m] is the width in [winv] and the
    width less the shift in [wdiv] *)
Lemma wpow_inv_exponent : forall w m x, 1 <= m <= w ->
  wpow w x (wadd w (wshl w 1 (m - 1)) (neg_one w)) = x ^ (2 ^ (m - 1) - 1) mod 2 ^ w.
Proof.
  intros w m x Hm. rewrite low_ones by lia. apply wpow_spec; [lia|].
  pose proof (pow2_pos (m - 1) ltac:(lia)). pose proof (pow2_lt (m - 1) w ltac:(lia)). lia.
Qed.

Lemma even_no_inverse : forall w x y, 1 <= w -> Z.odd x = false -> (x * y) mod 2 ^ w <> 1.
Proof.
  intros w x y Hw Hx Heq.
  (* the product stays even modulo 2 *)
  pose proof (mod_mod_pow2 1 w (x * y) ltac:(lia)) as H. rewrite Heq in H.
  change (2 ^ 1) with 2 in H. rewrite !Zmod_odd, Z.odd_mul, Hx in H. discriminate H.
Qed.

Theorem winv_spec : forall w x, 1 <= w -> 0 <= x < 2 ^ w ->
  match winv w x with
  | Some y => Z.odd x = true /\ 0 <= y < 2 ^ w /\ (x * y) mod 2 ^ w = 1
  | None => Z.odd x = false /\ forall y, (x * y) mod 2 ^ w <> 1
  end.
Proof.
  intros w x Hw Hx. unfold winv. rewrite is_odd_spec.
  destruct (Z.odd x) eqn:Ho.
  - rewrite (wpow_inv_exponent w w) by lia.
    split; [reflexivity|]. split; [apply mod_pow2_range; lia|].
    rewrite Z.mul_mod_idemp_r by (pose proof (pow2_pos w); lia). apply odd_inverse; assumption.
  - split; [reflexivity|]. intros y. apply even_no_inverse; assumption.
Qed.

Lemma winv_unique : forall w x y, 1 <= w -> 0 <= x < 2 ^ w -> 0 <= y < 2 ^ w ->
  (x * y) mod 2 ^ w = 1 -> winv w x = Some y.
Proof.
  intros w x y Hw Hx Hy H. pose proof (winv_spec w x Hw Hx) as S.
  destruct (winv w x) as [y'|]; [|destruct S as [_ S]; elim (S y H)].
  destruct S as (Ho & Hy' & H'). f_equal.
  rewrite <- (Z.mod_small y' (2 ^ w)), <- (Z.mod_small y (2 ^ w)) by assumption.
  apply (odd_cancel w x); congruence.
Qed.

Lemma wdiv_zero : forall w d, wdiv w 0 d = Some 0.
Proof. reflexivity. Qed.

Lemma wdiv_none : forall w n d, n <> 0 -> tz w n < tz w d -> wdiv w n d = None.
Proof.
  intros w n d Hn Hlt. unfold wdiv.
  destruct (Z.eqb_spec n 0); [contradiction|]. destruct (Z.ltb_spec (tz w n) (tz w d)); [reflexivity|lia].
Qed.

(** the third branch: both operands shifted down, the divisor inverted modulo what is left of
    the width *)
Lemma wdiv_eq : forall w n d, n <> 0 -> 0 <= tz w d < w -> tz w d <= tz w n ->
  wdiv w n d =
  Some (((d / 2 ^ tz w d) ^ (2 ^ (w - tz w d - 1) - 1) * (n / 2 ^ tz w d)) mod 2 ^ (w - tz w d)).
Proof.
  intros w n d Hn Hs Hle. unfold wdiv.
  destruct (Z.eqb_spec n 0); [contradiction|]. destruct (Z.ltb_spec (tz w n) (tz w d)); [lia|].
  rewrite wand_low_ones, wpow_inv_exponent, !wshr_spec by lia. unfold wmul.
  rewrite Z.mul_mod_idemp_l, mod_mod_pow2 by (pose proof (pow2_pos w); lia). reflexivity.
Qed.

(** In the third branch [d = 2^s * d'] with [d'] odd, [n = 2^s * n'] and [s < w].  The branch
    finds the one solution below [2^(w - s)]; all others are congruent to it. *)
Lemma wdiv_quotient : forall w n d, 1 <= w -> 0 < n < 2 ^ w -> 0 <= d -> tz w d <= tz w n ->
  0 <= tz w d < w /\
  exists x, wdiv w n d = Some x /\ 0 <= x < 2 ^ (w - tz w d) /\ (x * d) mod 2 ^ w = n /\
            forall y, (y * d) mod 2 ^ w = n -> y mod 2 ^ (w - tz w d) = x.
Proof.
  intros w n d Hw Hn Hd Hle.
  pose proof (tz_lt_width w n Hn) as Hnw.
  pose proof (tz_nonneg w d ltac:(lia)) as Hs0.
  assert (Hdpos : 0 < d).
  { destruct (Z.eq_dec d 0) as [->|]; [simpl in Hle|]; lia. }
  destruct (tz_spec w d Hdpos) as (d' & Ed & Hod & _).
  destruct (tz_factor w n (tz w d)) as [n' En]; try lia.
  split; [lia|]. rewrite wdiv_eq by lia.
  set (s := tz w d) in *.
  rewrite Ed, En, !div_pow2_exact by lia. rewrite En in Hn.
  pose proof (pow2_odd_quotient w s d' n' ltac:(lia) Hod ltac:(lia)) as Hsol.
  eexists. split; [reflexivity|]. split; [apply mod_pow2_range; lia|]. split; [exact Hsol|].
  intros y Hy. rewrite <- Hsol in Hy. apply pow2_odd_cancel in Hy; [|lia|exact Hod].
  rewrite Hy. apply Z.mod_mod. pose proof (pow2_pos (w - s)). lia.
Qed.

Lemma wdiv_unique : forall w n d x, 1 <= w -> 0 < n < 2 ^ w -> 0 <= d -> tz w d <= tz w n ->
  0 <= x < 2 ^ (w - tz w d) -> (x * d) mod 2 ^ w = n -> wdiv w n d = Some x.
Proof.
  intros w n d x Hw Hn Hd Hle Hx H.
  destruct (wdiv_quotient w n d Hw Hn Hd Hle) as (_ & x' & -> & _ & _ & Hu).
  rewrite <- (Hu x H). f_equal. apply Z.mod_small. exact Hx.
Qed.

Lemma wdiv_no_quotient : forall w n d x, 1 <= w -> 0 < n < 2 ^ w -> 0 <= d ->
  tz w n < tz w d -> (x * d) mod 2 ^ w <> n.
Proof.
  intros w n d x Hw Hn Hd Hlt Heq.
  pose proof (tz_nonneg w n ltac:(lia)) as Hn0.
  pose proof (tz_lt_width w n Hn) as Hnw.
  destruct (tz_spec w n ltac:(lia)) as [q [Hq [Hoq _]]].
  destruct (tz_factor w d (tz w n + 1)) as [d1 Hd1]; try lia.
  set (k := tz w n) in *.
  (* [(x * d) mod 2^w] is a multiple of [2^(k+1)], but [n = 2^k * q] with [q] odd *)
  rewrite Hd1, mul_pow2_mod, Z.pow_add_r, <- Z.mul_assoc, Hq in Heq by lia.
  apply Z.mul_reg_l in Heq; [|pose proof (pow2_pos k); lia].
  rewrite <- Heq, Z.odd_mul in Hoq. discriminate Hoq.
Qed.

(** [wdiv] returns [None] exactly when no solution exists, and [Some] of the least one otherwise *)
Theorem wdiv_spec : forall w n d, 1 <= w -> 0 <= n < 2 ^ w -> 0 <= d < 2 ^ w ->
  match wdiv w n d with
  | Some x => 0 <= x < 2 ^ w /\ (x * d) mod 2 ^ w = n /\ forall y, 0 <= y < x -> (y * d) mod 2 ^ w <> n
  | None => forall x, (x * d) mod 2 ^ w <> n
  end.
Proof.
  intros w n d Hw Hn Hd. pose proof (pow2_pos w ltac:(lia)) as HM.
  destruct (Z.eq_dec n 0) as [->|Hn0].
  - rewrite wdiv_zero. split; [lia|]. split; [apply Z.mod_0_l; lia|]. intros; lia.
  - destruct (Z_lt_le_dec (tz w n) (tz w d)) as [Hlt|Hle].
    + rewrite wdiv_none by assumption. intros x. apply wdiv_no_quotient; lia.
    + destruct (wdiv_quotient w n d Hw ltac:(lia) (proj1 Hd) Hle) as (Hs & x & -> & Hx & Hsol & Hu).
      pose proof (pow2_le (w - tz w d) w ltac:(lia)).
      split; [lia|]. split; [exact Hsol|].
      intros y Hy Hyn. apply Hu in Hyn. rewrite Z.mod_small in Hyn; lia.
Qed.

Theorem wdiv_sound : forall w n d x, 1 <= w -> 0 <= n < 2 ^ w -> 0 <= d < 2 ^ w ->
  wdiv w n d = Some x ->
  0 <= x < 2 ^ w /\ (x * d) mod 2 ^ w = n /\ forall y, 0 <= y < x -> (y * d) mod 2 ^ w <> n.
Proof.
  intros w n d x Hw Hn Hd Hdiv. pose proof (wdiv_spec w n d Hw Hn Hd) as S.
  rewrite Hdiv in S. exact S.
Qed.

Theorem wdiv_complete : forall w n d, 1 <= w -> 0 <= n < 2 ^ w -> 0 <= d < 2 ^ w ->
  wdiv w n d = None -> forall x, (x * d) mod 2 ^ w <> n.
Proof.
  intros w n d Hw Hn Hd Hdiv. pose proof (wdiv_spec w n d Hw Hn Hd) as S.
  rewrite Hdiv in S. exact S.
Qed.

(** [BITS - shift - 1] never underflows where it is evaluated *)
Theorem wdiv_no_underflow : forall w n d, 1 <= w -> 0 <= n < 2 ^ w -> 0 <= d < 2 ^ w ->
  wdiv_reaches_sub w n d = true -> 0 <= w - tz w d - 1 /\ 0 <= w - tz w d.
Proof.
  intros w n d Hw Hn Hd H. unfold wdiv_reaches_sub in H.
  apply andb_true_iff in H. destruct H as [H0 H1].
  apply negb_true_iff in H0, H1. apply Z.eqb_neq in H0. apply Z.ltb_ge in H1.
  pose proof (tz_lt_width w n ltac:(lia)). lia.
Qed.

Theorem from_u64_into_u64 : forall w c, 1 <= w -> 0 <= c < 2 ^ w -> from_u64 w (into_u64 w c) = c.
Proof. intros. unfold from_u64, into_u64. apply Z.mod_small. assumption. Qed.

Theorem from_u64_range : forall w v, 1 <= w -> 0 <= from_u64 w v < 2 ^ w.
Proof. intros. apply mod_pow2_range. lia. Qed.

Theorem into_i64_sign : forall w c, 1 <= w -> 0 <= c < 2 ^ w ->
  - 2 ^ (w - 1) <= into_i64 w c < 2 ^ (w - 1) /\ (into_i64 w c) mod 2 ^ w = c.
Proof.
  intros w c Hw Hc. unfold into_i64.
  pose proof (pow2_half w Hw) as E.
  destruct (Z.ltb_spec c (2 ^ (w - 1))).
  - split; [lia|apply Z.mod_small; lia].
  - split; [lia|]. rewrite <- (Z_mod_plus_full _ 1), Z.mod_small; lia.
Qed.

Lemma into_i64_mod : forall w v, 1 <= w -> - 2 ^ (w - 1) <= v < 2 ^ (w - 1) ->
  into_i64 w (v mod 2 ^ w) = v.
Proof.
  intros w v Hw Hv. unfold into_i64. pose proof (pow2_half w Hw) as E.
  destruct (Z_lt_le_dec v 0).
  - rewrite <- (Z_mod_plus_full v 1), Z.mod_small by lia.
    destruct (Z.ltb_spec (v + 1 * 2 ^ w) (2 ^ (w - 1))); lia.
  - rewrite Z.mod_small by lia. destruct (Z.ltb_spec v (2 ^ (w - 1))); lia.
Qed.

Lemma try_into_i16_fits : forall w c, -32768 <= into_i64 w c <= 32767 ->
  try_into_i16 w c = Some (into_i64 w c).
Proof.
  intros w c H. unfold try_into_i16.
  rewrite (proj2 (Z.leb_le _ _)), (proj2 (Z.leb_le _ _)) by lia. reflexivity.
Qed.

(** at widths of 16 and more the second hypothesis follows from the third *)
Lemma from_i16_round_trip : forall w v, 1 <= w <= 64 -> - 2 ^ (w - 1) <= v < 2 ^ (w - 1) ->
  -32768 <= v <= 32767 -> try_into_i16 w (from_i16 w v) = Some v.
Proof.
  intros w v Hw Hv Hv16. unfold from_i16, from_u64. rewrite mod_mod_pow2 by lia.
  rewrite try_into_i16_fits; rewrite into_i64_mod by lia; [reflexivity|exact Hv16].
Qed.

Theorem from_i16_try_into_i16 : forall w v, 16 <= w <= 64 -> -32768 <= v <= 32767 ->
  try_into_i16 w (from_i16 w v) = Some v.
Proof.
  intros w v Hw Hv. apply from_i16_round_trip; try lia.
  pose proof (pow2_le 15 (w - 1) ltac:(lia)) as H15. change (2 ^ 15) with 32768 in H15. lia.
Qed.

(** at 8 bits [from_i16] truncates; [try_into_i16] always succeeds with the sign-extended byte *)
Theorem try_into_i16_w8 : forall c, 0 <= c < 256 ->
  try_into_i16 8 c = Some (if c <? 128 then c else c - 256).
Proof.
  intros c Hc. rewrite try_into_i16_fits; [reflexivity|].
  unfold into_i64. change (2 ^ (8 - 1)) with 128. change (2 ^ 8) with 256.
  destruct (c <? 128); lia.
Qed.

Theorem into_u8_low8 : forall w c, 8 <= w -> 0 <= c < 2 ^ w ->
  into_u8 w c = c mod 256 /\ (forall b, 0 <= b < 256 -> into_u8 w (from_u8 w b) = b).
Proof.
  intros w c Hw Hc. unfold into_u8, from_u8, from_u64, into_u64. split; [reflexivity|].
  intros b Hb. assert (256 <= 2 ^ w) by (change 256 with (2 ^ 8); apply pow2_le; lia).
  rewrite (Z.mod_small b (2 ^ w)) by lia. apply Z.mod_small. lia.
Qed.
