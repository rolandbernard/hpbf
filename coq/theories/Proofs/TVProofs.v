(** * TVProofs.v — soundness of the certificate checker of [TV.v]: if [tv_check] accepts an IR
    program, a bytecode program and a certificate, then every terminating run of the IR interpreter
    model is matched by a run of the bytecode model with the same I/O trace, and conversely
    (property C02, the translation [bc::CodeGen::translate]; the JIT runs the same bytecode). *)
From Coq Require Import ZArith List Bool Lia Zdiv Setoid.
From HPBF Require Import Cell IO Expr BC IR X86 TV CellProofs ExprProofs BCWfProofs BCProofs Level0Proofs X86Proofs.
Import ListNotations.
Open Scope Z_scope.
#[local] Existing Instances eqm_setoid Zplus_eqm Zminus_eqm Zmult_eqm Zopp_eqm.
Local Arguments Z.mul : simpl never.
Local Arguments Z.add : simpl never.
Local Arguments Z.sub : simpl never.
Local Arguments Z.pow : simpl never.
Local Arguments Z.modulo : simpl never.
Local Arguments Z.div : simpl never.

Section Poly.
Variable w : Z.
Hypothesis Hw : 0 <= w.
Let M := 2 ^ w.
Notation "a == b" := (eqm M a b) (at level 70).

Lemma pow2_nz : M <> 0. Proof. apply Z.pow_nonzero; lia. Qed.

Lemma fold_left_ext_in : forall (A B : Type) (f g : A -> B -> A) l, (forall a x, List.In x l -> f a x = g a x) ->
  forall a, fold_left f l a = fold_left g l a.
Proof.
  intros A B f g l. induction l as [|x l IH]; intros H a; [reflexivity|]. cbn [fold_left].
  rewrite (H a x (or_introl eq_refl)). apply IH. intros a' x' IN. apply H. right. exact IN.
Qed.

Lemma eval_ext_in : forall q g1 g2, (forall v, List.In v (e_variables q) -> g1 v = g2 v) -> eval w q g1 = eval w q g2.
Proof.
  intros q g1 g2 H. apply fold_left_ext_in. intros a p IN. f_equal.
  apply fold_left_ext_in. intros b v IV. rewrite (H v); [reflexivity|]. apply in_flat_map. exists p. split; assumption.
Qed.

Lemma eval_red : forall e g, eval w e g mod M = eval w e g.
Proof.
  intros e g. unfold eval. destruct e as [|p e _] using rev_ind; [apply Z.mod_0_l, pow2_nz|].
  rewrite fold_left_app. apply Z.mod_mod, pow2_nz.
Qed.

Lemma eqm_exact : forall a b, a == b -> a mod M = a -> b mod M = b -> a = b.
Proof. intros a b H A B. unfold eqm in H. congruence. Qed.

Lemma pcanon_den : forall rho e, den rho (pcanon w e) == den rho e.
Proof.
  intros rho e. unfold pcanon, M.
  rewrite amap_parts_den, (fold_acc_den w Hw rho (fun p => sort_z (snd p)) fst), (den_map_scale w rho 1).
  - apply eqm_of_eq. cbn [amap_den fold_right]. ring.
  - intros p. unfold dpart. cbn [fst snd]. rewrite (mon_perm rho _ _ (sort_z_perm (snd p))). apply eqm_of_eq. ring.
Qed.

Lemma tv_same_sound : forall a b g, tv_same w a b = true -> eval w a g = eval w b g.
Proof.
  intros a b g H. unfold tv_same in H. apply part_eqb_eq in H.
  apply eqm_exact; [|apply eval_red|apply eval_red].
  rewrite !(eval_den w Hw). rewrite <- (pcanon_den g a), <- (pcanon_den g b), H. reflexivity.
Qed.

Lemma psubst_sound : forall f e g,
  eval w (psubst w f e) g = eval w e (fun v => eval w (f v) g).
Proof.
  intros f e g. apply (eqm_exact _ _); [|apply eval_red|apply eval_red].
  rewrite (eval_den w Hw _ e).
  induction e as [|[c vs] e IH]; [reflexivity|].
  cbn [psubst fold_right] in *. rewrite (eval_add w Hw). fold (psubst w f e). rewrite IH, den_cons.
  apply Zplus_eqm; [|reflexivity]. unfold dpart. cbn [fst snd].
  induction vs as [|v vs IV]; cbn [fold_right mon].
  - rewrite (eval_val w Hw). replace (c * 1) with c by ring. reflexivity.
  - rewrite (eval_mul w Hw), IV. ring_simplify. reflexivity.
Qed.
End Poly.

(** An anchor records a control point of a pair of runs: the two tapes, the temporaries, the
    pointer and the input position there.  [rho A] gives every atom of [TV.v] its value at the
    anchor [A].  A symbolic state describes a pair of concrete states relative to an anchor: each
    side's cells (and the temporaries) hold the values of their polynomials ([RI], [RB]); [Rel]
    adds that the I/O states are equal, that the anchor's tapes agree modulo 2^w outside [s_d], and
    the non-zero facts. *)
Section Sim.
Variable w : Z.
Hypothesis Hw : 0 <= w.
Variable e : env.
Notation M := (2 ^ w).

Record anchor := { a_ti : tmap; a_tb : tmap; a_tmps : tmap; a_ptr : Z; a_pos : nat }.

Definition rho (A : anchor) (a : Z) : Z :=
  let m := a mod 5 in
  let k := a / 5 in
  if m =? 0 then tget (a_tb A) (a_ptr A + k)
  else if m =? 1 then tget (a_ti A) (a_ptr A + k)
  else if m =? 2 then tget (a_tb A) (a_ptr A + k)
  else if m =? 3 then tget (a_tmps A) k
  else from_u8 w (nth (a_pos A + Z.to_nat k) (input e) 0).

Lemma atom_mod : forall k r, 0 <= r < 5 -> (5 * k + r) mod 5 = r /\ (5 * k + r) / 5 = k.
Proof.
  intros k r R. split.
  - rewrite Z.add_comm, Z.mul_comm, Z_mod_plus_full. apply Z.mod_small. exact R.
  - rewrite Z.add_comm, Z.mul_comm, Z.div_add by lia. rewrite Z.div_small by exact R. lia.
Qed.

Lemma rho_acell : forall A k, rho A (acell k) = tget (a_tb A) (a_ptr A + k).
Proof.
  intros A k. unfold rho, acell. destruct (atom_mod k 0 ltac:(lia)) as [E1 E2].
  replace (5 * k) with (5 * k + 0) by lia. rewrite E1, E2. reflexivity.
Qed.
Lemma rho_axi : forall A k, rho A (axi k) = tget (a_ti A) (a_ptr A + k).
Proof. intros A k. unfold rho, axi. destruct (atom_mod k 1 ltac:(lia)) as [E1 E2]. rewrite E1, E2. reflexivity. Qed.
Lemma rho_axb : forall A k, rho A (axb k) = tget (a_tb A) (a_ptr A + k).
Proof. intros A k. unfold rho, axb. destruct (atom_mod k 2 ltac:(lia)) as [E1 E2]. rewrite E1, E2. reflexivity. Qed.
Lemma rho_atmp : forall A t, rho A (atmp t) = tget (a_tmps A) t.
Proof. intros A t. unfold rho, atmp. destruct (atom_mod t 3 ltac:(lia)) as [E1 E2]. rewrite E1, E2. reflexivity. Qed.
Lemma rho_ainp : forall A j, rho A (ainp j) = from_u8 w (nth (a_pos A + Z.to_nat j) (input e) 0).
Proof. intros A j. unfold rho, ainp. destruct (atom_mod j 4 ltac:(lia)) as [E1 E2]. rewrite E1, E2. reflexivity. Qed.

Definition ev (A : anchor) (p : expr) : Z := eval w p (rho A).

Lemma ev_red : forall A p, ev A p mod M = ev A p.
Proof. intros A p. exact (eval_red w Hw p (rho A)). Qed.

(** the values of polynomials are reduced, so a congruence modulo 2^w determines them *)
Lemma ev_mod : forall A p x, eqm M (ev A p) x -> x mod M = ev A p.
Proof. intros A p x H. rewrite <- (ev_red A p). symmetry. exact H. Qed.

Lemma ev_var : forall A a, ev A (e_var a) = rho A a mod M.
Proof. intros A a. symmetry. exact (ev_mod A _ _ (eval_var w Hw (rho A) a)). Qed.
Lemma wadd_ev : forall A p q, wadd w (ev A p) (ev A q) = ev A (e_add w p q).
Proof. intros A p q. exact (ev_mod A _ _ (eval_add w Hw (rho A) p q)). Qed.
Lemma wmul_ev : forall A p q, wmul w (ev A p) (ev A q) = ev A (e_mul w p q).
Proof. intros A p q. exact (ev_mod A _ _ (eval_mul w Hw (rho A) p q)). Qed.
Lemma wsub_ev : forall A p q, wadd w (ev A p) (wneg w (ev A q)) = ev A (e_add w p (e_neg w q)).
Proof.
  intros A p q. apply ev_mod. unfold ev. rewrite (eval_add w Hw), (eval_neg w Hw).
  unfold wneg, eqm. rewrite Zplus_mod_idemp_r. reflexivity.
Qed.
Lemma ev_nil : forall A, ev A [] = 0.
Proof. reflexivity. Qed.
Lemma ev_imm : forall A c, imm_ok w c = true -> ev A (e_val c) = c.
Proof.
  intros A c H. unfold imm_ok in H. apply andb_prop in H. destruct H as [H1 H2].
  apply Z.leb_le in H1. apply Z.ltb_lt in H2.
  rewrite <- (ev_mod A _ _ (eval_val w Hw (rho A) c)). apply Z.mod_small. lia.
Qed.
Lemma tv_same_ev : forall A a b, tv_same w a b = true -> ev A a = ev A b.
Proof. intros A a b H. exact (tv_same_sound w Hw a b _ H). Qed.

Definition RI (A : anchor) (st : sst) (si : irst) : Prop :=
  ir_ptr si = a_ptr A /\ in_pos (ir_io si) = (a_pos A + Z.to_nat (s_n st))%nat /\ 0 <= s_n st /\
  forall k, tget (ir_tape si) (a_ptr A + k) = ev A (cell_i st k).

Definition RB (A : anchor) (st : sst) (sb : bcst) : Prop :=
  bc_ptr sb = a_ptr A /\ in_pos (bc_io sb) = (a_pos A + Z.to_nat (s_n st))%nat /\ 0 <= s_n st /\
  (forall k, tget (bc_tape sb) (a_ptr A + k) = ev A (cell_b st k)) /\
  (forall t p, look t (s_t st) = Some p -> tget (bc_tmps sb) t = ev A p).

Definition Rel (A : anchor) (st : sst) (si : irst) (sb : bcst) : Prop :=
  RI A st si /\ RB A st sb /\ ir_io si = bc_io sb /\
  (forall k, memz k (s_d st) = false -> tget (a_ti A) (a_ptr A + k) mod M = tget (a_tb A) (a_ptr A + k) mod M) /\
  (forall p, List.In p (s_nz st) -> ev A p <> 0).

Lemma RI_read : forall A st si k, RI A st si -> ir_read si k = ev A (cell_i st k).
Proof. intros A st si k (P & _ & _ & C). unfold ir_read. rewrite P. apply C. Qed.
Lemma RB_mem : forall A st sb k, RB A st sb -> bc_mem sb k = ev A (cell_b st k).
Proof. intros A st sb k (P & _ & _ & C & _). unfold bc_mem. rewrite P. apply C. Qed.

Lemma RI_set_io : forall A st si io n, RI A st si -> in_pos io = (a_pos A + Z.to_nat n)%nat -> 0 <= n ->
  RI A (set_n st n) (ir_set_io si io).
Proof. intros A st si io n (P & _ & _ & C) IP N. exact (conj P (conj IP (conj N C))). Qed.
Lemma RB_set_io : forall A st sb io n, RB A st sb -> in_pos io = (a_pos A + Z.to_nat n)%nat -> 0 <= n ->
  RB A (set_n st n) (bc_set_io sb io).
Proof. intros A st sb io n (P & _ & _ & C & T) IP N. exact (conj P (conj IP (conj N (conj C T)))). Qed.

(** a list of events ([Some b]: output of the byte [b]; [None]: an input request) run against the
    I/O environment; the flag tells whether every request succeeded *)
Fixpoint io_run (evs : list (option Z)) (io : iost) : iost * bool :=
  match evs with
  | [] => (io, true)
  | Some b :: r => match do_output e io b with IoOk _ io' => io_run r io' | IoFail io' => (io', false) end
  | None :: r => match do_input e io with IoOk _ io' => io_run r io' | IoFail io' => (io', false) end
  end.

Definition cev (A : anchor) (s : sev) : option Z :=
  match s with SOut p => Some (into_u8 w (ev A p)) | SIn => None end.

Lemma io_run_app : forall a b io,
  io_run (a ++ b) io = match io_run a io with (io', true) => io_run b io' | (io', false) => (io', false) end.
Proof.
  induction a as [|[x|] a IH]; intros b io; cbn [app io_run]; [reflexivity| |].
  - destruct (do_output e io x); [apply IH|reflexivity].
  - destruct (do_input e io); [apply IH|reflexivity].
Qed.

Lemma ev_eq_sound : forall A a b, ev_eq w a b = true -> map (cev A) a = map (cev A) b.
Proof.
  intros A. induction a as [|[p|] a IH]; intros [|[q|] b] H; cbn [ev_eq] in H; try discriminate; [reflexivity| |].
  - apply andb_prop in H. destruct H as [H1 H2]. cbn [map cev]. rewrite (tv_same_ev A p q H1), (IH b H2). reflexivity.
  - cbn [map cev]. rewrite (IH b H). reflexivity.
Qed.

Lemma input_value : forall io b io', do_input e io = IoOk b io' ->
  b = nth (in_pos io) (input e) 0 /\ in_pos io' = S (in_pos io) /\ out_cnt io' = out_cnt io.
Proof.
  intros io b io' H. unfold do_input in H. destruct (in_absent e); [discriminate|].
  destruct (opt_nat_eqb (in_fail_at e) (in_pos io)); [discriminate|].
  destruct (nth_error (input e) (in_pos io)) as [x|] eqn:N; injection H as <- <-; cbn; (split; [|split; reflexivity]).
  - symmetry. apply nth_error_nth. exact N.
  - symmetry. apply nth_overflow. apply nth_error_None. exact N.
Qed.
Lemma output_pos : forall io b u io', do_output e io b = IoOk u io' -> in_pos io' = in_pos io.
Proof.
  intros io b u io' H. unfold do_output in H. destruct (negb (out_present e)); [injection H as _ <-; reflexivity|].
  destruct (opt_nat_eqb (out_fail_at e) (out_cnt io)); [discriminate|]. injection H as _ <-. reflexivity.
Qed.

(** the [n]-th input after the anchor is the atom [ainp n] *)
Lemma input_step : forall A n io b io', 0 <= n -> in_pos io = (a_pos A + Z.to_nat n)%nat -> do_input e io = IoOk b io' ->
  from_u8 w b = ev A (e_var (ainp n)) /\ in_pos io' = (a_pos A + Z.to_nat (n + 1))%nat.
Proof.
  intros A n io b io' N P H. destruct (input_value _ _ _ H) as (B & P' & _). split.
  - rewrite ev_var, rho_ainp. unfold from_u8, from_u64. rewrite Z.mod_mod by exact (pow2_nz w Hw). rewrite B, P. reflexivity.
  - rewrite P', P, Z2Nat.inj_add by lia. cbn. lia.
Qed.

(** the common shape of [cell_i] and [cell_b] ([x] is [axi] or [axb]), so that one lemma about a
    write ([cellof_set]) serves both sides *)
Definition cellof (d : list Z) (x : Z -> Z) (m : amap) (k : Z) : expr :=
  match look k m with Some p => p | None => if memz k d then e_var (x k) else e_var (acell k) end.

Lemma cell_i_of : forall st k, cell_i st k = cellof (s_d st) axi (s_ci st) k.
Proof. reflexivity. Qed.
Lemma cell_b_of : forall st k, cell_b st k = cellof (s_d st) axb (s_cb st) k.
Proof. reflexivity. Qed.

(** writing the value of a polynomial to a cell is recording the polynomial for that cell *)
Lemma cellof_set : forall A d x m ptr tape k0 p0,
  (forall k, tget tape (ptr + k) = ev A (cellof d x m k)) ->
  forall k, tget (tset tape (ptr + k0) (ev A p0)) (ptr + k) = ev A (cellof d x ((k0, p0) :: m) k).
Proof.
  intros A d x m ptr tape k0 p0 H k. rewrite MachineProofs.tget_tset. unfold cellof. cbn [look].
  destruct (k0 =? k) eqn:E.
  - apply Z.eqb_eq in E. subst k. rewrite Z.eqb_refl. reflexivity.
  - apply Z.eqb_neq in E. replace (ptr + k0 =? ptr + k) with false by (symmetry; apply Z.eqb_neq; lia). apply H.
Qed.

Lemma sym_ir_d : forall l st, s_d (fst (sym_ir w l st)) = s_d st.
Proof.
  induction l as [|i l IH]; intros st; [reflexivity|]. cbn [sym_ir].
  destruct (sym_ir_step w st i) as [st1 e1] eqn:S1. specialize (IH st1). destruct (sym_ir w l st1) as [st2 e2].
  cbn [fst] in *. rewrite IH. destruct i; cbn [sym_ir_step] in S1; injection S1 as <- _; reflexivity.
Qed.

Lemma write_list : forall A d x ptr (g : expr -> Z) (h : expr -> expr), (forall p, g p = ev A (h p)) ->
  forall (calcs : list (Z * expr)) m tape, (forall k, tget tape (ptr + k) = ev A (cellof d x m k)) ->
  forall k, tget (fold_left (fun t ce => tset t (ptr + fst ce) (g (snd ce))) calcs tape) (ptr + k)
            = ev A (cellof d x (fold_left (fun m ce => (fst ce, h (snd ce)) :: m) calcs m) k).
Proof.
  intros A d x ptr g h G calcs. induction calcs as [|[k0 p0] calcs IH]; intros m tape H; cbn [fold_left]; [exact H|].
  apply IH. cbn [fst snd]. rewrite G. exact (cellof_set A d x m ptr tape k0 (h p0) H).
Qed.

Lemma fold_left_map_l : forall (A B C : Type) (f : A -> B -> A) (g : C -> B) l a,
  fold_left f (map g l) a = fold_left (fun a x => f a (g x)) l a.
Proof. intros A B C f g l. induction l as [|x l IH]; intros a; [reflexivity|]. cbn. apply IH. Qed.

Lemma sym_ir_step_sound : forall A st si i st' evs, is_simple i = true -> RI A st si ->
  sym_ir_step w st i = (st', evs) -> forall rest,
  match io_run (map (cev A) evs) (ir_io si) with
  | (io', true) => exists si', (forall f, ir_exec w e false (S f) (i :: rest) si = ir_exec w e false f rest si')
                               /\ ir_io si' = io' /\ RI A st' si'
  | (io', false) => exists si', (forall f, ir_exec w e false (S f) (i :: rest) si = Stopped si') /\ ir_io si' = io'
  end.
Proof.
  intros A st si i st' evs SI R H rest. pose proof R as (P & IP & N & CE).
  destruct i as [src|dst|calcs|c sh b o|c sh b]; try discriminate; cbn [sym_ir_step] in H; injection H as <- <-;
    cbn [map cev io_run].
  - pose proof (RI_read A st si src R) as RD.
    destruct (do_output e (ir_io si) (into_u8 w (ev A (cell_i st src)))) as [u io'|io'] eqn:O; exists (ir_set_io si io').
    + split; [intros f; cbn [ir_exec]; rewrite RD, O; reflexivity|]. split; [reflexivity|].
      apply (RI_set_io A st si io' (s_n st) R); [|exact N]. rewrite (output_pos _ _ _ _ O). exact IP.
    + split; [intros f; cbn [ir_exec]; rewrite RD, O; reflexivity|reflexivity].
  - destruct (do_input e (ir_io si)) as [b io'|io'] eqn:I.
    + exists (ir_write (ir_set_io si io') dst (from_u8 w b)). split; [intros f; cbn [ir_exec]; rewrite I; reflexivity|].
      split; [reflexivity|]. destruct (input_step A (s_n st) _ _ _ N IP I) as (V & IP').
      split; [exact P|]. split; [exact IP'|]. split; [cbn; lia|].
      cbn [ir_write ir_set_io ir_tape ir_ptr]. rewrite P, V.
      exact (cellof_set A (s_d st) axi (s_ci st) (a_ptr A) (ir_tape si) dst _ CE).
    + exists (ir_set_io si io'). split; [intros f; cbn [ir_exec]; rewrite I; reflexivity|reflexivity].
  - exists (ir_calc w calcs si). split; [intros f; reflexivity|]. unfold ir_calc. rewrite LimitedProofs.writes_frame.
    split; [reflexivity|]. split; [exact P|]. split; [exact IP|]. split; [exact N|].
    cbn [ir_tape]. rewrite P, !fold_left_map_l.
    apply (write_list A (s_d st) axi (a_ptr A) (fun ex => eval w ex (ir_read si)) (psubst w (cell_i st))); [|exact CE].
    intros p. unfold ev. rewrite (psubst_sound w Hw). apply eval_ext_in. intros x _. exact (RI_read A st si x R).
Qed.

Lemma sym_ir_sound : forall pre, forallb is_simple pre = true -> forall A st si st' evs rest, RI A st si ->
  sym_ir w pre st = (st', evs) ->
  match io_run (map (cev A) evs) (ir_io si) with
  | (io', true) => exists si', (forall f, ir_exec w e false (length pre + f) (pre ++ rest) si = ir_exec w e false f rest si')
                               /\ ir_io si' = io' /\ RI A st' si'
  | (io', false) => exists si', (forall f, ir_exec w e false (length pre + f) (pre ++ rest) si = Stopped si') /\ ir_io si' = io'
  end.
Proof.
  induction pre as [|i pre IH]; intros SP A st si st' evs rest R H; cbn [sym_ir] in H.
  - injection H as <- <-. cbn. exists si. split; [reflexivity|]. split; [reflexivity|exact R].
  - cbn [forallb] in SP. apply andb_prop in SP. destruct SP as [Si SP].
    destruct (sym_ir_step w st i) as [st1 e1] eqn:S1. destruct (sym_ir w pre st1) as [st2 e2] eqn:S2.
    injection H as <- <-. rewrite map_app, io_run_app.
    pose proof (sym_ir_step_sound A st si i st1 e1 Si R S1 (pre ++ rest)) as ST.
    destruct (io_run (map (cev A) e1) (ir_io si)) as [io1 [|]].
    + destruct ST as (si1 & E1 & I1 & R1). specialize (IH SP A st1 si1 st2 e2 rest R1 S2). rewrite I1 in IH.
      destruct (io_run (map (cev A) e2) io1) as [io2 [|]]; destruct IH as (si2 & E2 & IH); exists si2;
        (split; [intros f; cbn [length app plus]; rewrite E1; apply E2|exact IH]).
    + destruct ST as (si1 & E1 & I1). exists si1. split; [intros f; cbn [length app plus]; apply E1|exact I1].
Qed.

Lemma RB_set_mem : forall A st sb k p, RB A st sb -> RB A (set_cb st ((k, p) :: s_cb st)) (bc_set_mem sb k (ev A p)).
Proof.
  intros A st sb k p (P & IP & N & C & T). refine (conj P (conj IP (conj N (conj _ T)))).
  cbn [bc_set_mem bc_tape]. rewrite P. exact (cellof_set A (s_d st) axb (s_cb st) (a_ptr A) (bc_tape sb) k p C).
Qed.

Lemma RB_set_tmp : forall A st sb t p, RB A st sb -> RB A (set_t st ((t, p) :: s_t st)) (bc_set_tmp sb t (ev A p)).
Proof.
  intros A st sb t p (P & IP & N & C & T). refine (conj P (conj IP (conj N (conj C _)))).
  intros t' p'. cbn [set_t s_t look bc_set_tmp bc_tmps]. rewrite MachineProofs.tget_tset.
  destruct (t =? t'); [intros Q; injection Q as <-; reflexivity|apply T].
Qed.

(** the bytecode side leaves the IR-side cells, the differing cells and the non-zero facts alone *)
Definition ir_view (st : sst) : amap * list Z * list expr := (s_ci st, s_d st, s_nz st).

Lemma sym_write_view : forall st l v, ir_view (sym_write st l v) = ir_view st.
Proof. intros st l v. destruct l; reflexivity. Qed.

Lemma sym_read_sound : forall A st sb l p st1, RB A st sb -> sym_read w st l = Some (p, st1) ->
  fst (bc_read w sb l) = ev A p /\ RB A st1 (snd (bc_read w sb l)) /\ ir_view st1 = ir_view st.
Proof.
  intros A st sb l p st1 R H. destruct l as [k|k|t|c]; cbn [sym_read bc_read fst snd] in *.
  - injection H as <- <-. split; [exact (RB_mem A st sb k R)|split; [exact R|reflexivity]].
  - injection H as <- <-. split; [exact (RB_mem A st sb k R)|split; [exact (RB_set_mem A st sb k [] R)|reflexivity]].
  - destruct (look t (s_t st)) as [q|] eqn:L; [|discriminate]. injection H as <- <-.
    split; [|split; [exact R|reflexivity]]. destruct R as (_ & _ & _ & _ & T). exact (T t q L).
  - destruct (imm_ok w c) eqn:I; [|discriminate]. injection H as <- <-.
    split; [symmetry; exact (ev_imm A c I)|split; [exact R|reflexivity]].
Qed.

Lemma sym_write_sound : forall A st sb l p, RB A st sb -> RB A (sym_write st l p) (bc_write sb l (ev A p)).
Proof.
  intros A st sb l p R. destruct l as [k|k|t|c]; cbn [sym_write bc_write];
    [apply RB_set_mem|apply RB_set_mem|apply RB_set_tmp|]; exact R.
Qed.

Lemma sym_binop_sound : forall A (op : Z -> Z -> Z) (f : expr -> expr -> expr) st sb d a b st',
  (forall p q, op (ev A p) (ev A q) = ev A (f p q)) ->
  RB A st sb -> sym_binop w f st d a b = Some st' -> RB A st' (bc_binop w op sb d a b) /\ ir_view st' = ir_view st.
Proof.
  intros A op f st sb d a b st' OP R H. unfold sym_binop, bc_binop in *.
  (* the two orders of reading are treated alike *)
  destruct (loc_eqb d a).
  all: destruct (sym_read w st _) as [[v1 s1]|] eqn:R1; [|discriminate].
  all: destruct (sym_read w s1 _) as [[v2 s2]|] eqn:R2; [|discriminate].
  all: injection H as <-.
  all: destruct (sym_read_sound A st sb _ v1 s1 R R1) as (V1 & RB1 & W1); destruct (bc_read w sb _) as [x1 sb1].
  all: destruct (sym_read_sound A s1 sb1 _ v2 s2 RB1 R2) as (V2 & RB2 & W2); destruct (bc_read w sb1 _) as [x2 sb2].
  all: cbn [fst snd] in *; split; [rewrite V1, V2, OP; apply sym_write_sound; exact RB2|].
  all: rewrite sym_write_view, W2; exact W1.
Qed.

(** [fetch] is any function that agrees with [code_at code]; the engines fetch through a trie
    ([fetch_of], [fetch_instr_at]) *)
Variable code : list binstr.
Variable fetch : Z -> option binstr.
Hypothesis Hfetch : forall pc, fetch pc = code_at code pc.
Notation len := (Z.of_nat (length code)).
Notation bexec := (bc_exec w e false fetch len).

(** [bc_exec_step] with [limited = false], at a pc that holds an instruction *)
Lemma bexec_S : forall f s i, code_at code (bc_pc s) = Some i ->
  bexec (S f) s = match bc_eff w e (S f) i s with inl s1 => bexec f (bc_goto i s1) | inr o => o end.
Proof.
  intros f s i H. pose proof (instr_at_range code _ i H) as L. rewrite bc_exec_step, Hfetch, H, charge_false.
  replace (bc_pc s =? len) with false by (symmetry; apply Z.eqb_neq; lia). reflexivity.
Qed.

Definition bsame (s s' : bcst) : Prop :=
  bc_ptr s' = bc_ptr s /\ bc_io s' = bc_io s /\ bc_pc s' = bc_pc s.

Lemma RB_next : forall A st s, RB A st s -> RB A st (next s).
Proof. intros A st s R. exact R. Qed.

Lemma RB_bsame_io : forall s s', bsame s s' -> bc_io s' = bc_io s.
Proof. intros s s' (_ & H & _). exact H. Qed.

Lemma sym_bc_step_sound : forall A st sb i st' evs, RB A st sb -> sym_bc_step w st i = Some (st', evs) ->
  code_at code (bc_pc sb) = Some i ->
  match io_run (map (cev A) evs) (bc_io sb) with
  | (io', true) => exists sb', (forall f, bexec (S f) sb = bexec f (next sb')) /\ bc_io sb' = io' /\ bc_pc sb' = bc_pc sb
                               /\ RB A st' sb' /\ ir_view st' = ir_view st
  | (io', false) => exists sb', (forall f, bexec (S f) sb = Stopped sb') /\ bc_io sb' = io'
  end.
Proof.
  intros A st sb i st' evs R H CA. pose proof (fun f => bexec_S f sb i CA) as ST.
  pose proof R as (_ & IP & N & _).
  destruct i as [|c sh|sh|dst|src|c off|c off|d a b|d a b|d a b|d a]; cbn [sym_bc_step] in H; try discriminate;
    cbn [bc_eff bc_goto] in ST.
  (* the three arithmetic instructions differ in the operation only *)
  4-6: destruct (sym_binop w _ st d a b) as [s1|] eqn:SB; [|discriminate]; injection H as <- <-;
    eexists; (split; [exact ST|]); (split; [apply io_binop|]); (split; [apply pc_binop|]).
  - (* Noop *) injection H as <- <-. exists sb. split; [exact ST|]. split; [reflexivity|]. split; [reflexivity|].
    split; [exact R|reflexivity].
  - injection H as <- <-. cbn [map cev io_run]. destruct (do_input e (bc_io sb)) as [b io'|io'] eqn:I.
    + destruct (input_step A (s_n st) _ _ _ N IP I) as (V & IP'). rewrite V in ST.
      exists (bc_set_mem (bc_set_io sb io') dst (ev A (e_var (ainp (s_n st))))).
      split; [exact ST|]. split; [reflexivity|]. split; [reflexivity|]. split; [|reflexivity].
      apply (RB_set_mem A (set_n st (s_n st + 1)) (bc_set_io sb io')). apply RB_set_io; [exact R|exact IP'|lia].
    + exists (bc_set_io sb io'). split; [exact ST|reflexivity].
  - injection H as <- <-. cbn [map cev io_run]. rewrite (RB_mem A st sb src R) in ST.
    destruct (do_output e (bc_io sb) (into_u8 w (ev A (cell_b st src)))) as [u io'|io'] eqn:O; exists (bc_set_io sb io').
    + split; [exact ST|]. split; [reflexivity|]. split; [reflexivity|]. split; [|reflexivity].
      apply (RB_set_io A st sb io' (s_n st) R); [|exact N]. rewrite (output_pos _ _ _ _ O). exact IP.
    + split; [exact ST|reflexivity].
  - exact (sym_binop_sound A _ _ st sb d a b s1 (wadd_ev A) R SB).
  - exact (sym_binop_sound A _ _ st sb d a b s1 (wsub_ev A) R SB).
  - exact (sym_binop_sound A _ _ st sb d a b s1 (wmul_ev A) R SB).
  - destruct (sym_read w st a) as [[v s1]|] eqn:SR; [|discriminate]. injection H as <- <-.
    destruct (sym_read_sound A st sb a v s1 R SR) as (V1 & RB1 & W1).
    destruct (bc_read w sb a) as [x sb1] eqn:RD. destruct (read_ctl w sb a x sb1 RD) as [PC IO]. cbn [fst snd] in V1, RB1. subst x.
    exists (bc_write sb1 d (ev A v)). split; [exact ST|].
    split; [rewrite io_write; exact IO|]. split; [rewrite pc_write; exact PC|].
    split; [apply sym_write_sound; exact RB1|rewrite sym_write_view; exact W1].
Qed.

Lemma sym_bc_sound : forall seg A st sb st' evs, RB A st sb -> sym_bc w seg st = Some (st', evs) ->
  (forall j, (j < length seg)%nat -> code_at code (bc_pc sb + Z.of_nat j) = nth_error seg j) ->
  match io_run (map (cev A) evs) (bc_io sb) with
  | (io', true) => exists sb', (forall f, bexec (length seg + f) sb = bexec f sb') /\ bc_io sb' = io' /\ RB A st' sb'
                               /\ bc_pc sb' = bc_pc sb + Z.of_nat (length seg)
                               /\ s_ci st' = s_ci st /\ s_d st' = s_d st /\ s_nz st' = s_nz st
  | (io', false) => exists sb', (forall f, bexec (length seg + f) sb = Stopped sb') /\ bc_io sb' = io'
  end.
Proof.
  induction seg as [|i seg IH]; intros A st sb st' evs R H AT; cbn [sym_bc] in H.
  - injection H as <- <-. cbn. exists sb. split; [reflexivity|]. split; [reflexivity|]. split; [exact R|].
    split; [lia|]. split; [reflexivity|split; reflexivity].
  - destruct (sym_bc_step w st i) as [[st1 e1]|] eqn:S1; [|discriminate].
    destruct (sym_bc w seg st1) as [[st2 e2]|] eqn:S2; [|discriminate]. injection H as <- <-.
    rewrite map_app, io_run_app.
    assert (CA : code_at code (bc_pc sb) = Some i).
    { specialize (AT 0%nat ltac:(cbn; lia)). cbn in AT. rewrite Z.add_0_r in AT. exact AT. }
    pose proof (sym_bc_step_sound A st sb i st1 e1 R S1 CA) as ST.
    destruct (io_run (map (cev A) e1) (bc_io sb)) as [io1 [|]].
    + destruct ST as (sb1 & E1 & I1 & P1 & R1 & V1).
      assert (AT1 : forall j, (j < length seg)%nat -> code_at code (bc_pc (next sb1) + Z.of_nat j) = nth_error seg j).
      { intros j J. specialize (AT (S j) ltac:(cbn; lia)). cbn [nth_error] in AT. rewrite <- AT. f_equal. cbn. lia. }
      specialize (IH A st1 (next sb1) st2 e2 R1 S2 AT1). cbn [next bc_set_pc bc_io bc_pc] in IH. rewrite I1 in IH.
      destruct (io_run (map (cev A) e2) io1) as [io2 [|]].
      * destruct IH as (sb2 & E2 & I2 & R2 & P2 & V2). exists sb2.
        split; [intros f; cbn [length plus]; rewrite E1; apply E2|]. split; [exact I2|].
        split; [exact R2|]. split; [rewrite P2, P1; cbn [length]; lia|].
        injection V1 as <- <- <-. exact V2.
      * destruct IH as (sb2 & E2 & I2). exists sb2. split; [intros f; cbn [length plus]; rewrite E1; apply E2|exact I2].
    + destruct ST as (sb1 & E1 & I1). exists sb1. split; [intros f; cbn [length plus]; apply E1|exact I1].
Qed.

Lemma seg_from_nth : forall l pc stop head j, (j < length (seg_from l pc stop head))%nat ->
  nth_error (seg_from l pc stop head) j = nth_error l j.
Proof.
  induction l as [|i l IH]; intros pc stop head j J; cbn [seg_from] in *; [cbn in J; lia|].
  destruct ((pc <? stop) && is_arith i && negb (at_head head pc)); [|cbn in J; lia].
  destruct j as [|j]; [reflexivity|]. cbn [nth_error]. apply IH. cbn [length] in J. lia.
Qed.

Lemma seg_from_bound : forall l pc stop head, pc + Z.of_nat (length (seg_from l pc stop head)) <= Z.max pc stop.
Proof.
  induction l as [|i l IH]; intros pc stop head; cbn [seg_from]; [cbn; lia|].
  destruct ((pc <? stop) && is_arith i && negb (at_head head pc)) eqn:E; [|cbn; lia].
  apply andb_prop in E. destruct E as [E _]. apply andb_prop in E. destruct E as [E _]. apply Z.ltb_lt in E.
  cbn [length]. specialize (IH (pc + 1) stop head). lia.
Qed.

Lemma nth_error_skipn_add : forall (A : Type) n (l : list A) j, nth_error (skipn n l) j = nth_error l (n + j).
Proof.
  intros A n. induction n as [|n IH]; intros l j; [reflexivity|]. destruct l as [|x l]; [destruct j; reflexivity|].
  cbn [skipn plus nth_error]. apply IH.
Qed.

Lemma segment_at : forall pc stop head j, (j < length (bc_segment code pc stop head))%nat ->
  code_at code (pc + Z.of_nat j) = nth_error (bc_segment code pc stop head) j.
Proof.
  intros pc stop head j J. unfold bc_segment in *. destruct (pc <? 0) eqn:N; [cbn in J; lia|]. apply Z.ltb_ge in N.
  rewrite (seg_from_nth _ _ _ _ _ J). unfold code_at.
  destruct (pc + Z.of_nat j <? 0) eqn:N2; [apply Z.ltb_lt in N2; lia|].
  rewrite nth_error_skipn_add. f_equal. lia.
Qed.

Lemma segment_bound : forall pc stop head, 0 <= pc -> pc <= stop ->
  pc + Z.of_nat (length (bc_segment code pc stop head)) <= stop.
Proof.
  intros pc stop head P S. unfold bc_segment. destruct (pc <? 0) eqn:N; [apply Z.ltb_lt in N; lia|].
  pose proof (seg_from_bound (skipn (Z.to_nat pc) code) pc stop head). lia.
Qed.

Lemma split_simple_spec : forall l pre rest, split_simple l = (pre, rest) -> l = pre ++ rest /\ forallb is_simple pre = true.
Proof.
  induction l as [|i l IH]; intros pre rest H; cbn [split_simple] in H.
  - injection H as <- <-. split; reflexivity.
  - destruct (is_simple i) eqn:S; [|injection H as <- <-; split; reflexivity].
    destruct (split_simple l) as [a b] eqn:SL. injection H as <- <-. destruct (IH a b eq_refl) as (E & F).
    split; [cbn; congruence|cbn; rewrite S; exact F].
Qed.

Definition bterminal (o : outcome bcst) : Prop := match o with Done _ | Stopped _ => True | _ => False end.

Lemma bc_scan_mono : forall f c sh s s', bc_scan f c sh s = Some s' -> forall f', (f <= f')%nat -> bc_scan f' c sh s = Some s'.
Proof.
  induction f as [|f IH]; intros c sh s s' H f' L; [discriminate|]. destruct f' as [|f']; [lia|].
  cbn [bc_scan] in *. destruct (bc_mem s c =? 0); [exact H|]. apply (IH _ _ _ _ H). lia.
Qed.

Lemma bexec_mono : forall f s o, bexec f s = o -> bterminal o -> forall f', (f <= f')%nat -> bexec f' s = o.
Proof.
  induction f as [|f IH]; intros s o H T f' L; [cbn in H; subst o; contradiction|].
  destruct f' as [|f']; [lia|]. rewrite bc_exec_step in H |- *.
  destruct (bc_pc s =? len); [exact H|]. destruct (fetch (bc_pc s)) as [i|]; [|exact H]. rewrite charge_false in H |- *.
  (* only a scan looks at the fuel *)
  assert (E : bc_eff w e (S f') i s = bc_eff w e (S f) i s \/ bc_eff w e (S f) i s = inr (OutOfFuel s)).
  { destruct i as [|c sh| | | | | | | | |]; try (left; reflexivity). cbn [bc_eff].
    destruct (bc_scan (S f) c sh s) as [s'|] eqn:SC; [left|right; reflexivity].
    rewrite (bc_scan_mono _ _ _ _ _ SC (S f') ltac:(lia)). reflexivity. }
  destruct E as [->|E]; [|rewrite E in H; subst o; contradiction].
  destruct (bc_eff w e (S f) i s) as [s1|o1]; [apply (IH _ _ H T); lia|exact H].
Qed.

(** [reach s s']: every terminating run from [s'] is a terminating run from [s], and every
    terminating run from [s] passes through [s'] (with no more fuel) *)
Definition reach (s s' : bcst) : Prop :=
  (exists n, forall f o, bexec f s' = o -> bterminal o -> bexec (n + f) s = o) /\
  (forall g o, bexec g s = o -> bterminal o -> exists g', (g' <= g)%nat /\ bexec g' s' = o).
Definition reach_stop (s : bcst) (io : iost) : Prop :=
  exists n s', bexec n s = Stopped s' /\ bc_io s' = io.

Lemma reach_refl : forall s, reach s s.
Proof.
  intros s. split; [exists 0%nat; intros f o H _; exact H|]. intros g o H _. exists g. split; [lia|exact H].
Qed.
Lemma reach_trans : forall a b c, reach a b -> reach b c -> reach a c.
Proof.
  intros a b c ((n1 & H1) & B1) ((n2 & H2) & B2). split.
  - exists (n1 + n2)%nat. intros f o H T. rewrite <- Nat.add_assoc. apply H1; [|exact T]. apply H2; assumption.
  - intros g o H T. destruct (B1 g o H T) as (g1 & L1 & E1). destruct (B2 g1 o E1 T) as (g2 & L2 & E2).
    exists g2. split; [lia|exact E2].
Qed.
Lemma reach_steps : forall n s s', (forall f, bexec (n + f) s = bexec f s') -> reach s s'.
Proof.
  intros n s s' H. split; [exists n; intros f o E _; rewrite H; exact E|].
  intros g o E T. destruct (Nat.le_gt_cases n g) as [L|L].
  - exists (g - n)%nat. split; [lia|]. rewrite <- H. replace (n + (g - n))%nat with g by lia. exact E.
  - exfalso. pose proof (bexec_mono g s o E T n ltac:(lia)) as E2. specialize (H 0%nat). rewrite Nat.add_0_r in H.
    rewrite H in E2. cbn in E2. rewrite <- E2 in T. exact T.
Qed.
Lemma reach_then_stop : forall a b io, reach a b -> reach_stop b io -> reach_stop a io.
Proof.
  intros a b io ((n1 & H1) & _) (n2 & s' & H2 & I). exists (n1 + n2)%nat, s'. split; [|exact I]. apply H1; [exact H2|exact Logic.I].
Qed.

Definition btermN (g : nat) (s : bcst) : Prop := exists o, bexec g s = o /\ bterminal o.
Definition iterm (insts : list instr) (si : irst) : Prop :=
  exists f o, ir_exec w e false f insts si = o /\ iterminal o.

Lemma btermN_reach : forall g s s', reach s s' -> btermN g s -> exists g', (g' <= g)%nat /\ btermN g' s'.
Proof.
  intros g s s' (_ & B) (o & E & T). destruct (B g o E T) as (g' & L & E'). exists g'. split; [exact L|]. exists o. split; assumption.
Qed.
(** one exact step leaves strictly less fuel: what the induction of the converse direction
    ([back_back]) goes down on *)
Lemma btermN_step : forall g s s', (forall f, bexec (S f) s = bexec f s') -> btermN g s -> exists g', (g' < g)%nat /\ btermN g' s'.
Proof.
  intros g s s' H (o & E & T). destruct g as [|g]; [cbn in E; subst o; contradiction|].
  exists g. split; [lia|]. exists o. split; [rewrite <- H; exact E|exact T].
Qed.
Lemma btermN_mono : forall g g' s, btermN g s -> (g <= g')%nat -> btermN g' s.
Proof. intros g g' s (o & E & T) L. exists o. split; [apply (bexec_mono g s o E T g' L)|exact T]. Qed.

Definition anchor_of (si : irst) (sb : bcst) : anchor :=
  {| a_ti := ir_tape si; a_tb := bc_tape sb; a_tmps := bc_tmps sb; a_ptr := bc_ptr sb; a_pos := in_pos (bc_io sb) |}.

Lemma look_not_in : forall k m, ~ List.In k (map fst m) -> look k m = None.
Proof.
  intros k m. induction m as [|[k' v] m IH]; intros N; [reflexivity|]. cbn [look].
  destruct (k' =? k) eqn:E; [apply Z.eqb_eq in E; subst; exfalso; apply N; left; reflexivity|].
  apply IH. intros I. apply N. right. exact I.
Qed.
Lemma look_in : forall k v m, look k m = Some v -> List.In (k, v) m.
Proof.
  intros k v m. induction m as [|[k' v'] m IH]; intros H; [discriminate|]. cbn [look] in H.
  destruct (k' =? k) eqn:E; [apply Z.eqb_eq in E; injection H as <-; subst; left; reflexivity|right; apply IH; exact H].
Qed.
Lemma memz_In : forall k l, memz k l = true <-> List.In k l.
Proof.
  intros k l. induction l as [|x l IH]; cbn [memz List.In]; [split; [discriminate|intros []]|].
  rewrite orb_true_iff, Z.eqb_eq, IH. reflexivity.
Qed.

Lemma not_key_cells : forall st k, ~ List.In k (TV.keys st) ->
  cell_i st k = e_var (acell k) /\ cell_b st k = e_var (acell k).
Proof.
  intros st k N. unfold TV.keys in N. unfold cell_i, cell_b.
  rewrite (look_not_in k (s_ci st)) by (intros I; apply N, in_or_app; left; exact I).
  rewrite (look_not_in k (s_cb st)) by (intros I; apply N, in_or_app; right; apply in_or_app; left; exact I).
  destruct (memz k (s_d st)) eqn:MD; [|split; reflexivity].
  exfalso. apply N, in_or_app. right. apply in_or_app. right. exact (proj1 (memz_In _ _) MD).
Qed.

Lemma agree_sound : forall A st k, agree w st k = true -> ev A (cell_i st k) = ev A (cell_b st k).
Proof. intros A st k H. exact (tv_same_ev A _ _ H). Qed.

Lemma same_value : forall A st si sb k, Rel A st si sb -> (List.In k (TV.keys st) -> agree w st k = true) ->
  tget (ir_tape si) (a_ptr A + k) = tget (bc_tape sb) (a_ptr A + k).
Proof.
  intros A st si sb k ((_ & _ & _ & CI) & (_ & _ & _ & CB & _) & _) H. rewrite CI, CB.
  destruct (in_dec Z.eq_dec k (TV.keys st)) as [IK|NK]; [exact (agree_sound A st k (H IK))|].
  destruct (not_key_cells st k NK) as [E1 E2]. rewrite E1, E2. reflexivity.
Qed.

Lemma Rel_mem : forall A st si sb k, Rel A st si sb -> agree w st k = true -> ir_read si k = bc_mem sb k.
Proof.
  intros A st si sb k (RI0 & RB0 & _) AGk. rewrite (RI_read A st si k RI0), (RB_mem A st sb k RB0). exact (agree_sound A st k AGk).
Qed.

(** the relation at the anchor taken from the states themselves: cells without an entry stand for
    their own (reduced) tape values, so only the entries have to be justified *)
Lemma Rel_anchor : forall si sb st,
  ir_ptr si = bc_ptr sb -> ir_io si = bc_io sb -> s_n st = 0 ->
  (forall k, tget (ir_tape si) (bc_ptr sb + k) mod M = tget (ir_tape si) (bc_ptr sb + k)) ->
  (forall k, tget (bc_tape sb) (bc_ptr sb + k) mod M = tget (bc_tape sb) (bc_ptr sb + k)) ->
  (forall k, memz k (s_d st) = false -> tget (ir_tape si) (bc_ptr sb + k) = tget (bc_tape sb) (bc_ptr sb + k)) ->
  (forall k q, look k (s_ci st) = Some q -> tget (ir_tape si) (bc_ptr sb + k) = ev (anchor_of si sb) q) ->
  (forall k q, look k (s_cb st) = Some q -> tget (bc_tape sb) (bc_ptr sb + k) = ev (anchor_of si sb) q) ->
  (forall t q, look t (s_t st) = Some q -> tget (bc_tmps sb) t = ev (anchor_of si sb) q) ->
  (forall q, List.In q (s_nz st) -> ev (anchor_of si sb) q <> 0) ->
  Rel (anchor_of si sb) st si sb.
Proof.
  intros si sb st PI IO N0 VI VB SAME CI CB TB NZ.
  assert (PA : a_ptr (anchor_of si sb) = bc_ptr sb) by reflexivity.
  split; [|split; [|split; [exact IO|split; [|exact NZ]]]].
  - split; [exact PI|]. split; [rewrite N0, IO; cbn; lia|]. split; [lia|].
    intros k. rewrite PA. unfold cell_i. destruct (look k (s_ci st)) as [q|] eqn:L; [exact (CI k q L)|].
    destruct (memz k (s_d st)) eqn:MD; rewrite ev_var; symmetry.
    + rewrite rho_axi. apply VI.
    + rewrite rho_acell, PA. change (a_tb (anchor_of si sb)) with (bc_tape sb). rewrite <- (SAME k MD). apply VI.
  - split; [reflexivity|]. split; [rewrite N0; cbn; lia|]. split; [lia|]. split; [|exact TB].
    intros k. rewrite PA. unfold cell_b. destruct (look k (s_cb st)) as [q|] eqn:L; [exact (CB k q L)|].
    destruct (memz k (s_d st)); rewrite ev_var; [rewrite rho_axb|rewrite rho_acell]; symmetry; apply VB.
  - intros k MD. rewrite PA. change (tget (ir_tape si) (bc_ptr sb + k) mod M = tget (bc_tape sb) (bc_ptr sb + k) mod M).
    rewrite (SAME k MD). reflexivity.
Qed.

Lemma subst_sound : forall A st si sb q, Rel A st si sb -> subst_ok w st q = true ->
  ev A (subst_st w st q) = ev (anchor_of si sb) q.
Proof.
  intros A st si sb q R OK. unfold subst_st, ev. rewrite (psubst_sound w Hw). apply eval_ext_in.
  intros a IN. unfold subst_ok in OK. rewrite forallb_forall in OK. specialize (OK a IN).
  destruct R as ((PI & _ & _ & CI) & (PB & _ & _ & CB & TB) & _).
  unfold atom_ok in OK. unfold atom_val, rho. cbn [anchor_of a_ti a_tb a_tmps a_ptr a_pos].
  destruct (a mod 5 =? 0) eqn:E0.
  - rewrite PB. symmetry. apply CB.
  - destruct (a mod 5 =? 1) eqn:E1; [rewrite PB; symmetry; apply CI|].
    destruct (a mod 5 =? 2) eqn:E2; [rewrite PB; symmetry; apply CB|].
    destruct (a mod 5 =? 3) eqn:E3; [|discriminate].
    destruct (look (a / 5) (s_t st)) as [p|] eqn:L; [|discriminate]. symmetry. apply (TB _ _ L).
Qed.

Lemma bot_false : forall A st si sb, is_bot st = true -> Rel A st si sb -> False.
Proof.
  intros A st si sb H (_ & _ & _ & _ & NZ). unfold is_bot in H. apply existsb_exists in H. destruct H as (p & IN & E).
  destruct p; [|discriminate]. apply (NZ [] IN). reflexivity.
Qed.

Lemma nonzero_in_sound : forall A st si sb p, Rel A st si sb -> nonzero_in w st p = true -> ev A p <> 0.
Proof.
  intros A st si sb p R H. unfold nonzero_in in H. rewrite !orb_true_iff in H. destruct H as [[H|H]|H].
  - exfalso. exact (bot_false A st si sb H R).
  - unfold is_nz_const in H. destruct p as [|[c [|v vs]] [|p2 p]]; try discriminate.
    apply negb_true_iff, Z.eqb_neq in H. unfold ev, eval. cbn [fold_left eval_part fst snd]. unfold wadd.
    rewrite Z.add_0_l. exact H.
  - apply existsb_exists in H. destruct H as (q & IN & S). rewrite (tv_same_ev A p q S).
    destruct R as (_ & _ & _ & _ & NZ). apply NZ. exact IN.
Qed.

Lemma entails_sound : forall A st si sb f, Rel A st si sb -> entails w st f = true ->
  Rel (anchor_of si sb) (st_of_facts f) si sb.
Proof.
  intros A st si sb f R H. unfold entails in H.
  apply orb_prop in H. destruct H as [H|H]; [exfalso; exact (bot_false A st si sb H R)|].
  destruct (andb_prop _ _ H) as [[[HD HC]%andb_prop HT]%andb_prop HNZ]. rewrite forallb_forall in HD, HC, HT, HNZ.
  pose proof R as ((PI & _ & _ & CI) & (PB & _ & _ & CB & TB) & IO & _).
  (* every cell that is not declared differing holds the same value on both tapes *)
  assert (SAME : forall k, memz k (f_d f) = false -> tget (ir_tape si) (a_ptr A + k) = tget (bc_tape sb) (a_ptr A + k)).
  { intros k ND. apply (same_value A st si sb k R). intros IK.
    specialize (HC k ltac:(apply in_or_app; left; exact IK)). rewrite ND in HC. cbn [orb] in HC.
    apply andb_prop in HC. destruct HC as [HC _]. exact HC. }
  (* a declared cell fact gives the value of the cell *)
  assert (FACT : forall k q, look k (f_c f) = Some q ->
            ev A (cell_b st k) = ev (anchor_of si sb) q /\ agree w st k = true).
  { intros k q L. assert (ND : memz k (f_d f) = false).
    { destruct (memz k (f_d f)) eqn:MD; [|reflexivity]. specialize (HD k (proj1 (memz_In _ _) MD)). rewrite L in HD. discriminate. }
    specialize (HC k ltac:(apply in_or_app; right; apply in_map_iff; exists (k, q); split; [reflexivity|apply look_in; exact L])).
    rewrite ND, L in HC. cbn [orb] in HC. destruct (andb_prop _ _ HC) as [AGk [OK SM]%andb_prop].
    split; [|exact AGk]. rewrite (tv_same_ev A _ _ SM). apply (subst_sound A st si sb q R OK). }
  apply Rel_anchor; rewrite ?PB; cbn [st_of_facts s_ci s_cb s_d s_t s_nz s_n].
  - exact PI.
  - exact IO.
  - reflexivity.
  - intros k. rewrite CI. apply ev_red.
  - intros k. rewrite CB. apply ev_red.
  - exact SAME.
  - intros k q L. destruct (FACT k q L) as (EV & AGk). rewrite CI, (agree_sound A st k AGk). exact EV.
  - intros k q L. rewrite CB. exact (proj1 (FACT k q L)).
  - intros t q L. specialize (HT (t, q) (look_in _ _ _ L)). cbn [fst snd] in HT.
    destruct (look t (s_t st)) as [p|] eqn:LT; [|discriminate]. apply andb_prop in HT. destruct HT as [OK SM].
    rewrite (TB t p LT), (tv_same_ev A _ _ SM). apply (subst_sound A st si sb q R OK).
  - intros q IN. specialize (HNZ q IN). apply andb_prop in HNZ. destruct HNZ as [OK NZq].
    rewrite <- (subst_sound A st si sb q R OK). apply (nonzero_in_sound A st si sb _ R NZq).
Qed.

Lemma look_map_t : forall (g : Z -> expr -> expr) t m,
  look t (map (fun tp => (fst tp, g (fst tp) (snd tp))) m) = option_map (g t) (look t m).
Proof.
  intros g t m. induction m as [|[t' p] m IH]; [reflexivity|]. cbn [map look fst snd].
  destruct (t' =? t) eqn:E; [apply Z.eqb_eq in E; subst; reflexivity|exact IH].
Qed.

Lemma is_const_ev : forall A A' p, is_const p = true -> ev A p = ev A' p.
Proof.
  intros A A' p H. unfold ev. apply eval_ext_in. intros v IN. exfalso.
  destruct p as [|[c [|x vs]] [|p2 p]]; try discriminate; cbn in IN; tauto.
Qed.

(** [moved] describes every pair of states with the tapes, temporaries and I/O of a related pair
    and both pointers [shift] cells further *)
Lemma moved_rel : forall A st si sb shift si' sb', Rel A st si sb ->
  ir_tape si' = ir_tape si -> bc_tape sb' = bc_tape sb -> bc_tmps sb' = bc_tmps sb ->
  ir_ptr si' = bc_ptr sb' -> ir_io si' = bc_io sb' -> bc_ptr sb' = a_ptr A + shift ->
  Rel (anchor_of si' sb') (moved w st shift) si' sb'.
Proof.
  intros A st si sb shift si' sb' R ET EB EM PI' IO' PS.
  pose proof R as ((_ & _ & _ & CI) & (_ & _ & _ & CB & TB) & _).
  apply Rel_anchor; rewrite ?ET, ?EB, ?PS; cbn [moved s_ci s_cb s_t s_nz s_n].
  - congruence.
  - exact IO'.
  - reflexivity.
  - intros k. rewrite <- Z.add_assoc, CI. apply ev_red.
  - intros k. rewrite <- Z.add_assoc, CB. apply ev_red.
  - intros k ND. rewrite <- Z.add_assoc. apply (same_value A st si sb (shift + k) R).
    intros IK.
    destruct (agree w st (shift + k)) eqn:AGk; [reflexivity|]. exfalso.
    cbn [moved s_d] in ND. rewrite (proj2 (memz_In _ _)) in ND; [discriminate|].
    apply in_map_iff. exists (shift + k). split; [lia|]. apply filter_In. split; [exact IK|rewrite AGk; reflexivity].
  - intros k q L. discriminate.
  - intros k q L. discriminate.
  - intros t q L. rewrite (look_map_t (fun t p => if is_const p then p else e_var (atmp t))) in L.
    destruct (look t (s_t st)) as [p|] eqn:LT; [|discriminate]. cbn [option_map] in L. injection L as <-.
    rewrite EM, (TB t p LT). destruct (is_const p) eqn:IC; [apply is_const_ev; exact IC|].
    rewrite ev_var, rho_atmp. cbn [anchor_of a_tmps]. rewrite EM, (TB t p LT). symmetry. apply ev_red.
  - intros q [].
Qed.

Lemma moved_sound : forall A st si sb shift, Rel A st si sb ->
  Rel (anchor_of (ir_move si shift) (bc_move sb shift)) (moved w st shift) (ir_move si shift) (bc_move sb shift).
Proof.
  intros A st si sb shift R. pose proof R as ((PI & _) & (PB & _) & IO & _).
  apply (moved_rel A st si sb shift _ _ R); try reflexivity; [cbn; congruence|exact IO|cbn; congruence].
Qed.

(** What an IR run with outcome [o] asks of the bytecode at [sb]: if the run is [Done], the bytecode
    reaches a state at [pc'] that [st'] relates to the IR's final state at some anchor; if it
    [Stopped] on a failed I/O request, the bytecode stops with the same I/O state; of a run that
    did not end nothing is asked. *)
Definition SimC (o : outcome irst) (sb : bcst) (pc' : Z) (st' : sst) : Prop :=
  match o with
  | Done si' => exists A' sb', reach sb sb' /\ bc_pc sb' = pc' /\ Rel A' st' si' sb'
  | Stopped si' => reach_stop sb (ir_io si')
  | _ => True
  end.

Lemma SimC_reach : forall o sb sb1 pc' st', reach sb sb1 -> SimC o sb1 pc' st' -> SimC o sb pc' st'.
Proof.
  intros o sb sb1 pc' st' RE H. destruct o as [s|s|s|p s|s]; cbn [SimC] in *; try exact I.
  - destruct H as (A' & sb' & R1 & P & RL). exists A', sb'. split; [exact (reach_trans _ _ _ RE R1)|split; assumption].
  - exact (reach_then_stop _ _ _ RE H).
Qed.

(** an outcome that ends does not change with more fuel: it suffices to look at large fuels *)
Lemma SimC_more_fuel : forall n insts si sb pc' st', (forall f, SimC (ir_exec w e false (n + f) insts si) sb pc' st') ->
  forall f, SimC (ir_exec w e false f insts si) sb pc' st'.
Proof.
  intros n insts si sb pc' st' H f. specialize (H f).
  destruct (ir_exec w e false f insts si) as [s|s|s|p s|s] eqn:EO; try exact I;
    rewrite (ir_exec_mono w e f insts si _ EO I (n + f)%nat ltac:(lia)) in H; exact H.
Qed.

Lemma step_brz : forall s c off, code_at code (bc_pc s) = Some (BrZ c off) ->
  forall f, bexec (S f) s = bexec f (if bc_mem s c =? 0 then bc_set_pc s (bc_pc s + off) else next s).
Proof. intros s c off CA f. exact (bexec_S f s _ CA). Qed.
Lemma step_brnz : forall s c off, code_at code (bc_pc s) = Some (BrNZ c off) ->
  forall f, bexec (S f) s = bexec f (if bc_mem s c =? 0 then next s else bc_set_pc s (bc_pc s + off)).
Proof. intros s c off CA f. exact (bexec_S f s _ CA). Qed.
Lemma step_scan : forall s c sh, code_at code (bc_pc s) = Some (Scan c sh) ->
  forall f, bexec (S f) s = match bc_scan (S f) c sh s with Some s' => bexec f (next s') | None => OutOfFuel s end.
Proof. intros s c sh CA f. rewrite (bexec_S f s _ CA). cbn [bc_eff andb]. destruct (bc_scan (S f) c sh s); reflexivity. Qed.

Lemma Rel_add_nz : forall A st si sb p, Rel A st si sb -> ev A p <> 0 -> Rel A (add_nz st p) si sb.
Proof.
  intros A st si sb p (RI0 & RB0 & IO & AG & NZ) NZp. refine (conj RI0 (conj RB0 (conj IO (conj AG _)))).
  intros q [<-|IN]; [exact NZp|exact (NZ q IN)].
Qed.

Lemma head_fact : forall si sb f cond, Rel (anchor_of si sb) (st_of_facts f) si sb -> ir_read si cond <> 0 ->
  Rel (anchor_of si sb) (add_nz (st_of_facts f) (e_var (if memz cond (f_d f) then axi cond else acell cond))) si sb.
Proof.
  intros si sb f cond R NZc. apply (Rel_add_nz _ _ _ _ _ R). pose proof R as (RI0 & _ & _ & AG & _).
  assert (RED : ir_read si cond mod M = ir_read si cond) by (rewrite (RI_read _ _ _ cond RI0); apply ev_red).
  destruct RI0 as (PI & _). cbn [anchor_of a_ptr] in PI.
  destruct (memz cond (f_d f)) eqn:MD; rewrite ev_var.
  - rewrite rho_axi. cbn [anchor_of a_ti a_ptr]. rewrite <- PI. fold (ir_read si cond). rewrite RED. exact NZc.
  - rewrite rho_acell. cbn [anchor_of a_tb a_ptr]. specialize (AG cond MD). cbn [anchor_of a_ti a_tb a_ptr] in AG.
    rewrite <- AG, <- PI. fold (ir_read si cond). rewrite RED. exact NZc.
Qed.

Lemma if_fact : forall A st si sb cond, Rel A st si sb -> agree w st cond = true -> ir_read si cond <> 0 ->
  Rel A (add_nz st (cell_b st cond)) si sb.
Proof.
  intros A st si sb cond R AGc NZc. apply (Rel_add_nz _ _ _ _ _ R).
  rewrite <- (agree_sound A st cond AGc), <- (RI_read A st si cond (proj1 R)). exact NZc.
Qed.

Lemma ir_move_0 : forall s, ir_move s 0 = s.
Proof. intros [t p i b]. unfold ir_move. cbn. rewrite Z.add_0_r. reflexivity. Qed.

Lemma after_move_sound : forall pc2 stb shift pc3 stb' A s2 sb2,
  after_move w code pc2 stb shift = Some (pc3, stb') -> Rel A stb s2 sb2 -> bc_pc sb2 = pc2 ->
  exists A3 sb3, reach sb2 sb3 /\ bc_pc sb3 = pc3 /\ Rel A3 stb' (ir_move s2 shift) sb3.
Proof.
  intros pc2 stb shift pc3 stb' A s2 sb2 H R P. unfold after_move in H. destruct (shift =? 0) eqn:S0.
  - apply Z.eqb_eq in S0. subst shift. injection H as <- <-. exists A, sb2. rewrite ir_move_0.
    split; [apply reach_refl|]. split; [exact P|exact R].
  - destruct (code_at code pc2) as [[| | sh | | | | | | | |]|] eqn:CA; try discriminate.
    destruct (sh =? shift) eqn:ES; [|discriminate]. apply Z.eqb_eq in ES. subst sh. injection H as <- <-.
    rewrite <- P in CA. exists (anchor_of (ir_move s2 shift) (bc_move sb2 shift)), (next (bc_move sb2 shift)).
    split; [apply (reach_steps 1); intros f; exact (bexec_S f sb2 _ CA)|]. split; [cbn; lia|].
    exact (moved_sound A stb s2 sb2 shift R).
Qed.

Lemma iterm_loop_zero : forall cond shift body once rest s, (ir_read s cond =? 0) = true -> iterm rest s ->
  iterm (ILoop cond shift body once :: rest) s.
Proof.
  intros cond shift body once rest s Z0 (f & o & E & T). exists (S f), o. split; [|exact T]. rewrite LimitedProofs.exec_loop, Z0. exact E.
Qed.

(** a loop or an [if] that is entered: the body ends on an I/O failure, or normally and what follows ends *)
Lemma iterm_enter : forall insts body k shift s,
  (forall f, ir_exec w e false (S f) insts s =
             LimitedProofs.after_body_lim false shift (ir_exec w e false f k) (ir_exec w e false f body s)) ->
  (exists f s', ir_exec w e false f body s = Stopped s') \/
  (exists f s2, ir_exec w e false f body s = Done s2 /\ iterm k (ir_move s2 shift)) ->
  iterm insts s.
Proof.
  intros insts body k shift s U [(f & s' & E)|(f & s2 & E & (f2 & o & E2 & T))].
  - exists (S f), (Stopped s'). split; [|exact I]. rewrite U, E. reflexivity.
  - exists (S (f + f2)), o. split; [|exact T].
    rewrite U, (ir_exec_mono w e f body s _ E I (f + f2)%nat ltac:(lia)). apply (ir_exec_mono w e f2 _ _ _ E2 T). lia.
Qed.

Lemma iterm_loop_step : forall cond shift body once rest s, (ir_read s cond =? 0) = false ->
  (exists f s', ir_exec w e false f body s = Stopped s') \/
  (exists f s2, ir_exec w e false f body s = Done s2 /\ iterm (ILoop cond shift body once :: rest) (ir_move s2 shift)) ->
  iterm (ILoop cond shift body once :: rest) s.
Proof.
  intros cond shift body once rest s NZ. apply iterm_enter. intros f. rewrite LimitedProofs.exec_loop, NZ. reflexivity.
Qed.

Lemma iterm_body_cases : forall body s, iterm body s ->
  (exists f s', ir_exec w e false f body s = Stopped s') \/ (exists f s2, ir_exec w e false f body s = Done s2).
Proof.
  intros body s (f & o & E & T). destruct o as [s2|s2|s2|p s2|s2]; try contradiction; [right|left]; exists f, s2; exact E.
Qed.

(** at the back edge the bytecode makes one step: to the exit, where the exit facts hold at some
    anchor, or to the head, where the invariant holds at the anchor taken there *)
Lemma back_edge : forall cond (once : bool) head back inv exitf stb' A si sb,
  (exists off, code_at code back = Some (BrNZ cond off) /\ back + off = head) ->
  agree w stb' cond = true -> entails w stb' inv = true ->
  once = true \/ entails w (once_exit w stb' cond) exitf = true ->
  Rel A stb' si sb -> bc_pc sb = back ->
  exists sb1, (forall f, bexec (S f) sb = bexec f sb1) /\
    if ir_read si cond =? 0
    then bc_pc sb1 = back + 1 /\ exists A', Rel A' (if once then once_exit w stb' cond else st_of_facts exitf) si sb1
    else bc_pc sb1 = head /\ Rel (anchor_of si sb1) (st_of_facts inv) si sb1.
Proof.
  intros cond once head back inv exitf stb' A si sb (off & CA & TG) AGB ENT ENTX R P. rewrite <- P in CA.
  pose proof (step_brnz sb cond off CA) as ST. rewrite <- (Rel_mem A stb' si sb cond R AGB) in ST.
  eexists. split; [exact ST|]. destruct (ir_read si cond =? 0) eqn:Z0.
  - split; [cbn; lia|].
    assert (RX : Rel A (once_exit w stb' cond) si sb).
    { unfold once_exit. destruct (nonzero_in w stb' (cell_i stb' cond)) eqn:NZC; [|exact R].
      exfalso. apply (nonzero_in_sound A stb' si sb _ R NZC).
      rewrite <- (RI_read A stb' si cond (proj1 R)). apply Z.eqb_eq. exact Z0. }
    destruct once; [exists A; exact RX|]. destruct ENTX as [EX|EX]; [discriminate|].
    exists (anchor_of si sb). exact (entails_sound A _ si sb exitf RX EX).
  - split; [cbn; lia|exact (entails_sound A stb' si sb inv R ENT)].
Qed.

(** A loop with a certificate, an IR run that ends: by induction on the IR's fuel.  At the back
    edge the bytecode leaves the loop, where the exit facts hold, or jumps to the head, where the
    invariant holds; from the head the body is run and the back edge is reached again with the same
    fuel ([head_from_back]). *)
Section Loop.
Variables (cond shift : Z) (body rest' : list instr) (once : bool).
Variables (head back : Z) (inv exitf : facts).
Variables (pc2 pc' : Z) (stb stb' st' : sst).
Notation fi := (st_of_facts inv).
Notation ent := (add_nz (st_of_facts inv) (e_var (if memz cond (f_d inv) then axi cond else acell cond))).
Notation LOOP := (ILoop cond shift body once :: rest').
Hypothesis BODY : forall f A si sb, Rel A ent si sb -> bc_pc sb = head -> SimC (ir_exec w e false f body si) sb pc2 stb.
Hypothesis REST : forall f A si sb, Rel A (if once then once_exit w stb' cond else st_of_facts exitf) si sb -> bc_pc sb = back + 1 ->
  SimC (ir_exec w e false f rest' si) sb pc' st'.
Hypothesis ENTX : once = true \/ entails w (once_exit w stb' cond) exitf = true.
Hypothesis MOVE : after_move w code pc2 stb shift = Some (back, stb').
Hypothesis BACKI : exists off, code_at code back = Some (BrNZ cond off) /\ back + off = head.
Hypothesis AGB : agree w stb' cond = true.
Hypothesis ENT : entails w stb' inv = true.

(** the loop once entered: [LimitedProofs.after_body_lim false shift], the loop again being what
    comes next, written out; [LimitedProofs.exec_loop] gives it up to conversion *)
Definition loop_cont (f : nat) (si : irst) : outcome irst :=
  match ir_exec w e false f body si with
  | Stopped s' => Stopped s'
  | OutOfFuel s' => OutOfFuel s'
  | Errored p s' => Errored p s'
  | Done s' | Interrupted s' => ir_exec w e false f LOOP (ir_move s' shift)
  end.

Lemma head_from_back : forall f,
  (forall A si sb, Rel A stb' si sb -> bc_pc sb = back -> SimC (ir_exec w e false f LOOP si) sb pc' st') ->
  forall si sb, Rel (anchor_of si sb) fi si sb -> bc_pc sb = head -> ir_read si cond <> 0 ->
  SimC (loop_cont f si) sb pc' st'.
Proof.
  intros f BK si sb R P NZc. unfold loop_cont.
  pose proof (BODY f _ si sb (head_fact si sb inv cond R NZc) P) as HB.
  pose proof (ir_unlimited_outcomes w e f body si) as UN.
  destruct (ir_exec w e false f body si) as [s2|s2|s2|p s2|s2]; cbn [SimC] in *; try exact I; try contradiction.
  - destruct HB as (A2 & sb2 & RE & P2 & R2).
    destruct (after_move_sound _ _ _ _ _ A2 s2 sb2 MOVE R2 P2) as (A3 & sb3 & RE3 & P3 & R3).
    apply (SimC_reach _ sb sb3); [exact (reach_trans _ _ _ RE RE3)|]. apply (BK A3); assumption.
  - exact HB.
Qed.

Lemma back_sound : forall f A si sb, Rel A stb' si sb -> bc_pc sb = back -> SimC (ir_exec w e false f LOOP si) sb pc' st'.
Proof.
  induction f as [|f IH]; intros A si sb R P; [exact I|].
  destruct (back_edge cond once head back inv exitf stb' A si sb BACKI AGB ENT ENTX R P) as (sb1 & ST & E).
  rewrite LimitedProofs.exec_loop. apply (SimC_reach _ sb sb1 _ _ (reach_steps 1 _ _ ST)).
  destruct (ir_read si cond =? 0) eqn:Z0.
  - destruct E as (P1 & A' & RX). exact (REST f A' si sb1 RX P1).
  - destruct E as (P1 & RA). apply (head_from_back f IH si sb1 RA P1). apply Z.eqb_neq. exact Z0.
Qed.

Lemma loop_sound : forall f si sb, Rel (anchor_of si sb) fi si sb -> bc_pc sb = head -> ir_read si cond <> 0 ->
  SimC (ir_exec w e false f LOOP si) sb pc' st'.
Proof.
  intros [|f] si sb R P NZc; [exact I|]. rewrite LimitedProofs.exec_loop, (proj2 (Z.eqb_neq _ _) NZc).
  exact (head_from_back f (back_sound f) si sb R P NZc).
Qed.
End Loop.

Lemma bc_scan_S : forall f c sh s, (bc_mem s c =? 0) = false -> bc_scan (S f) c sh s = bc_scan f c sh (bc_move s sh).
Proof. intros f c sh s NZ. cbn [bc_scan]. rewrite NZ. reflexivity. Qed.

Lemma scan_unroll : forall s c sh, code_at code (bc_pc s) = Some (Scan c sh) -> (bc_mem s c =? 0) = false ->
  reach s (bc_move s sh).
Proof.
  intros s c sh CA NZ.
  assert (CA' : code_at code (bc_pc (bc_move s sh)) = Some (Scan c sh)) by exact CA.
  split.
  - exists 1%nat. intros f o H T. destruct f as [|f]; [cbn in H; subst o; contradiction|].
    rewrite (step_scan _ _ _ CA') in H.
    change (1 + S f)%nat with (S (S f)). rewrite (step_scan _ _ _ CA), (bc_scan_S _ _ _ _ NZ).
    destruct (bc_scan (S f) c sh (bc_move s sh)) as [s'|] eqn:SC; [|subst o; contradiction].
    apply (bexec_mono f _ _ H T). lia.
  - intros g o H T. exists g. split; [lia|]. destruct g as [|g]; [cbn in H; subst o; contradiction|].
    rewrite (step_scan _ _ _ CA), (bc_scan_S _ _ _ _ NZ) in H. rewrite (step_scan _ _ _ CA').
    destruct (bc_scan g c sh (bc_move s sh)) as [s'|] eqn:SC; [|subst o; contradiction].
    rewrite (bc_scan_mono _ _ _ _ _ SC (S g) ltac:(lia)). exact H.
Qed.

Lemma all_agree_filter : forall st, all_agree w st = true -> filter (fun k => negb (agree w st k)) (TV.keys st) = [].
Proof.
  intros st H. unfold all_agree in H. rewrite forallb_forall in H.
  induction (TV.keys st) as [|k l IH]; [reflexivity|]. cbn [filter].
  rewrite (H k (or_introl eq_refl)). cbn [negb]. apply IH. intros x IN. apply H. right. exact IN.
Qed.

Lemma moved_form : forall st s, all_agree w st = true ->
  moved w st s = {| s_ci := []; s_cb := []; s_d := [];
                    s_t := map (fun tp => (fst tp, if is_const (snd tp) then snd tp else e_var (atmp (fst tp)))) (s_t st);
                    s_nz := []; s_n := 0 |}.
Proof. intros st s H. unfold moved. rewrite (all_agree_filter st H). reflexivity. Qed.

(** the invariant of a moving scan is [moved st1 shift] itself ([scanN_sound], [scanN_back]), so it
    has to survive another [moved] *)
Lemma moved_idem : forall st s, all_agree w st = true -> moved w (moved w st s) s = moved w st s.
Proof.
  intros st s H. rewrite (moved_form st s H). unfold moved. cbn [TV.keys s_ci s_cb s_d s_t map app filter]. f_equal.
  rewrite map_map. apply map_ext. intros [t p]. cbn [fst snd]. destruct (is_const p) eqn:IC; [rewrite IC; reflexivity|reflexivity].
Qed.

(** before a moving scan everything about the cells is forgotten *)
Lemma scan_start : forall shift st1, all_agree w st1 = true ->
  forall A si sb, Rel A st1 si sb -> Rel (anchor_of si sb) (moved w st1 shift) si sb.
Proof.
  intros shift st1 ALL A si sb R. pose proof R as ((PI & _) & (PB & _) & IO & _).
  rewrite (moved_form st1 shift ALL), <- (moved_form st1 0 ALL).
  apply (moved_rel A st1 si sb 0 _ _ R); try reflexivity; [congruence|exact IO|lia].
Qed.

(** with no keys, the cells hold the same values *)
Lemma moved_read : forall st1 shift A si sb cond, all_agree w st1 = true -> Rel A (moved w st1 shift) si sb ->
  ir_read si cond = bc_mem sb cond.
Proof.
  intros st1 shift A si sb cond ALL R. pose proof R as ((PI & _) & (PB & _) & _). unfold ir_read, bc_mem. rewrite PI, PB.
  apply (same_value A _ si sb cond R). rewrite (moved_form st1 shift ALL). intros [].
Qed.

Section ScanLoop.
Variables (cond shift : Z) (rest' : list instr) (once : bool) (pc1 pc' : Z) (st1 st' : sst).
Notation LOOP := (ILoop cond shift [] once :: rest').
Hypothesis CAS : code_at code pc1 = Some (Scan cond shift).
Hypothesis AGC : agree w st1 cond = true.
Hypothesis REST : forall f A si sb, Rel A (if shift =? 0 then st1 else moved w st1 shift) si sb -> bc_pc sb = pc1 + 1 ->
  SimC (ir_exec w e false f rest' si) sb pc' st'.

Lemma scan_exit : forall s, bc_pc s = pc1 -> (bc_mem s cond =? 0) = true -> reach s (next s).
Proof.
  intros s P Z0. rewrite <- P in CAS. apply (reach_steps 1). intros f. cbn [plus]. rewrite (step_scan s _ _ CAS).
  cbn [bc_scan]. rewrite Z0. reflexivity.
Qed.

Lemma scan0_sound : shift = 0 -> forall f A si sb, Rel A st1 si sb -> bc_pc sb = pc1 ->
  SimC (ir_exec w e false f LOOP si) sb pc' st'.
Proof.
  intros S0. induction f as [|f IH]; intros A si sb R P; [exact I|].
  rewrite LimitedProofs.exec_loop. rewrite (Rel_mem A st1 si sb cond R AGC).
  destruct (bc_mem sb cond =? 0) eqn:Z0.
  - apply (SimC_reach _ sb (next sb) _ _ (scan_exit sb P Z0)).
    apply (REST f A); [|cbn; lia]. rewrite S0. exact R.
  - destruct f as [|f0]; [exact I|]. cbn [ir_exec LimitedProofs.after_body_lim]. rewrite S0, ir_move_0.
    rewrite S0 in IH. exact (IH A si sb R P).
Qed.

Hypothesis ALL : all_agree w st1 = true.
Hypothesis SNZ : shift <> 0.

Lemma scanN_sound : forall f A si sb, Rel A (moved w st1 shift) si sb -> bc_pc sb = pc1 ->
  SimC (ir_exec w e false f LOOP si) sb pc' st'.
Proof.
  induction f as [|f IH]; intros A si sb R P; [exact I|].
  rewrite LimitedProofs.exec_loop, (moved_read st1 shift A si sb cond ALL R). destruct (bc_mem sb cond =? 0) eqn:Z0.
  - apply (SimC_reach _ sb (next sb) _ _ (scan_exit sb P Z0)).
    apply (REST f A); [|cbn; lia]. destruct (shift =? 0) eqn:S0; [apply Z.eqb_eq in S0; contradiction|exact R].
  - destruct f as [|f0]; [exact I|]. change (ir_exec w e false (S f0) [] si) with (Done si).
    rewrite <- P in CAS. apply (SimC_reach _ sb (bc_move sb shift) _ _ (scan_unroll sb cond shift CAS Z0)).
    apply (IH (anchor_of (ir_move si shift) (bc_move sb shift))); [|exact P].
    rewrite <- (moved_idem st1 shift ALL). exact (moved_sound A _ si sb shift R).
Qed.
End ScanLoop.

(** The converse: a bytecode run that ends forces the IR run to end.  Every iteration of the IR
    loop costs the bytecode at least the branch at the back edge, so the induction is on the
    bytecode's fuel. *)
Section LoopB.
Variables (cond shift : Z) (body rest' : list instr) (once : bool).
Variables (head back : Z) (inv exitf : facts).
Variables (pc2 pc' : Z) (stb stb' st' : sst).
Notation fi := (st_of_facts inv).
Notation ent := (add_nz (st_of_facts inv) (e_var (if memz cond (f_d inv) then axi cond else acell cond))).
Notation LOOP := (ILoop cond shift body once :: rest').
Hypothesis BODY : forall f A si sb, Rel A ent si sb -> bc_pc sb = head -> SimC (ir_exec w e false f body si) sb pc2 stb.
Hypothesis BODYB : forall g A si sb, Rel A ent si sb -> bc_pc sb = head -> btermN g sb -> iterm body si.
Hypothesis RESTB : forall g A si sb, Rel A (if once then once_exit w stb' cond else st_of_facts exitf) si sb -> bc_pc sb = back + 1 ->
  btermN g sb -> iterm rest' si.
Hypothesis ENTX : once = true \/ entails w (once_exit w stb' cond) exitf = true.
Hypothesis MOVE : after_move w code pc2 stb shift = Some (back, stb').
Hypothesis BACKI : exists off, code_at code back = Some (BrNZ cond off) /\ back + off = head.
Hypothesis AGB : agree w stb' cond = true.
Hypothesis ENT : entails w stb' inv = true.

Lemma head_back : forall g,
  (forall g' A si sb, (g' <= g)%nat -> Rel A stb' si sb -> bc_pc sb = back -> btermN g' sb -> iterm LOOP si) ->
  forall si sb, Rel (anchor_of si sb) fi si sb -> bc_pc sb = head -> ir_read si cond <> 0 -> btermN g sb ->
  (exists f s', ir_exec w e false f body si = Stopped s') \/
  (exists f s2, ir_exec w e false f body si = Done s2 /\ iterm LOOP (ir_move s2 shift)).
Proof.
  intros g BK si sb R P NZc BT.
  pose proof (head_fact si sb inv cond R NZc) as RE.
  destruct (iterm_body_cases body si (BODYB g _ si sb RE P BT)) as [S|(f & s2 & E)]; [left; exact S|]. right.
  exists f, s2. split; [exact E|].
  pose proof (BODY f _ si sb RE P) as HB. rewrite E in HB. cbn [SimC] in HB.
  destruct HB as (A2 & sb2 & RE2 & P2 & R2).
  destruct (after_move_sound _ _ _ _ _ A2 s2 sb2 MOVE R2 P2) as (A3 & sb3 & RE3 & P3 & R3).
  destruct (btermN_reach g sb sb3 (reach_trans _ _ _ RE2 RE3) BT) as (g3 & L3 & BT3).
  apply (BK g3 A3 _ sb3 L3 R3 P3 BT3).
Qed.

Lemma back_back : forall g A si sb, Rel A stb' si sb -> bc_pc sb = back -> btermN g sb -> iterm LOOP si.
Proof.
  induction g as [g IH] using lt_wf_ind. intros A si sb R P BT.
  destruct (back_edge cond once head back inv exitf stb' A si sb BACKI AGB ENT ENTX R P) as (sb1 & ST & E).
  destruct (btermN_step g sb sb1 ST BT) as (g' & L & BT').
  destruct (ir_read si cond =? 0) eqn:Z0.
  - destruct E as (P1 & A' & RX). apply iterm_loop_zero; [exact Z0|]. exact (RESTB g' A' si sb1 RX P1 BT').
  - destruct E as (P1 & RA). apply iterm_loop_step; [exact Z0|].
    apply (head_back g') with (sb := sb1); [|exact RA|exact P1|apply Z.eqb_neq; exact Z0|exact BT'].
    intros g2 A2 si2 sb2 L2. exact (IH g2 ltac:(lia) A2 si2 sb2).
Qed.

Lemma loop_back : forall g si sb, Rel (anchor_of si sb) fi si sb -> bc_pc sb = head -> ir_read si cond <> 0 -> btermN g sb ->
  iterm LOOP si.
Proof.
  intros g si sb R P NZc BT. apply iterm_loop_step; [apply Z.eqb_neq; exact NZc|].
  apply (head_back g) with (sb := sb); try assumption. intros g2 A2 si2 sb2 _. exact (back_back g2 A2 si2 sb2).
Qed.
End LoopB.

Section ScanB.
Variables (cond shift : Z) (rest' : list instr) (once : bool) (pc1 : Z) (st1 : sst).
Notation LOOP := (ILoop cond shift [] once :: rest').
Hypothesis CAS : code_at code pc1 = Some (Scan cond shift).
Hypothesis AGC : agree w st1 cond = true.
Hypothesis RESTB : forall g A si sb, Rel A (if shift =? 0 then st1 else moved w st1 shift) si sb -> bc_pc sb = pc1 + 1 ->
  btermN g sb -> iterm rest' si.

Lemma scan0_back : shift = 0 -> forall g A si sb, Rel A st1 si sb -> bc_pc sb = pc1 -> btermN g sb -> iterm LOOP si.
Proof.
  intros S0 g A si sb R P (o & E & T). rewrite <- P in CAS.
  destruct g as [|g]; [cbn in E; subst o; contradiction|].
  rewrite (step_scan _ _ _ CAS) in E.
  pose proof (Rel_mem A st1 si sb cond R AGC) as EQ.
  destruct (bc_mem sb cond =? 0) eqn:Z0.
  - apply iterm_loop_zero; [rewrite EQ; exact Z0|]. cbn [bc_scan] in E. rewrite Z0 in E.
    apply (RESTB g A si (next sb)); [|cbn; lia|exists o; split; assumption].
    rewrite S0. exact R.
  - exfalso. rewrite S0 in E. rewrite (scan0_none (S g) cond sb Z0) in E. subst o. exact T.
Qed.

Hypothesis ALL : all_agree w st1 = true.
Hypothesis SNZ : shift <> 0.

(** by induction on the fuel [k] of the bytecode's scan: every test of the scan that finds the cell
    non-zero is one iteration of the IR's empty loop *)
Lemma scanN_back : forall k A si sb s', Rel A (moved w st1 shift) si sb -> bc_pc sb = pc1 ->
  bc_scan k cond shift sb = Some s' -> (forall g, btermN g (next s') -> exists g', btermN g' (next s')) ->
  (exists g, btermN g (next s')) -> iterm LOOP si.
Proof.
  induction k as [|k IH]; intros A si sb s' R P SC _ BT; [discriminate|].
  pose proof (moved_read st1 shift A si sb cond ALL R) as EQ.
  cbn [bc_scan] in SC. destruct (bc_mem sb cond =? 0) eqn:Z0.
  - injection SC as <-. apply iterm_loop_zero; [rewrite EQ; exact Z0|]. destruct BT as (g & BT).
    apply (RESTB g A si (next sb)); [|cbn; lia|exact BT].
    destruct (shift =? 0) eqn:S0; [apply Z.eqb_eq in S0; contradiction|exact R].
  - apply iterm_loop_step; [rewrite EQ; exact Z0|]. right. exists 1%nat, si. split; [reflexivity|].
    apply (IH (anchor_of (ir_move si shift) (bc_move sb shift)) _ (bc_move sb shift) s'); [|exact P|exact SC|intros g H; exists g; exact H|exact BT].
    rewrite <- (moved_idem st1 shift ALL). exact (moved_sound A _ si sb shift R).
Qed.
End ScanB.

(** Both directions at once.  [cosim_at]: from this pair of states, an IR run that ends is
    matched by the bytecode up to [pc'] with the symbolic state [st'], and a bytecode run that ends
    forces the IR run to end; [cosim]: so for every pair of states related by [st] with the
    bytecode at [pc]. *)
Definition cosim_at (insts : list instr) (si : irst) (sb : bcst) (pc' : Z) (st' : sst) : Prop :=
  (forall f, SimC (ir_exec w e false f insts si) sb pc' st') /\ (forall g, btermN g sb -> iterm insts si).
Definition cosim (insts : list instr) (pc : Z) (st : sst) (pc' : Z) (st' : sst) : Prop :=
  forall A si sb, Rel A st si sb -> bc_pc sb = pc -> cosim_at insts si sb pc' st'.

Lemma cosim_at_reach : forall insts si sb sb1 pc' st', reach sb sb1 -> cosim_at insts si sb1 pc' st' -> cosim_at insts si sb pc' st'.
Proof.
  intros insts si sb sb1 pc' st' RE (F & B). split; [intros f; exact (SimC_reach _ _ _ _ _ RE (F f))|].
  intros g BT. destruct (btermN_reach g sb sb1 RE BT) as (g1 & _ & BT1). exact (B g1 BT1).
Qed.

Lemma cosim_nil : forall pc st, cosim [] pc st pc st.
Proof.
  intros pc st A si sb R P. split; [|intros g _; exists 1%nat, (Done si); split; [reflexivity|exact I]].
  intros [|f]; [exact I|]. exists A, sb. split; [apply reach_refl|]. split; [exact P|exact R].
Qed.

(** the IR interpreter makes [n] steps by itself (a straight-line part; a loop or an [if] whose
    condition is zero) *)
Lemma cosim_steps : forall n insts rest si si1 sb pc' st',
  (forall f, ir_exec w e false (n + f) insts si = ir_exec w e false f rest si1) ->
  cosim_at rest si1 sb pc' st' -> cosim_at insts si sb pc' st'.
Proof.
  intros n insts rest si si1 sb pc' st' SK (F & B). split; [apply (SimC_more_fuel n); intros f; rewrite SK; apply F|].
  intros g BT. destruct (B g BT) as (f & o & E & T). exists (n + f)%nat, o. split; [rewrite SK; exact E|exact T].
Qed.

Lemma cosim_region : forall pre seg st st1 rest pc pc' st', forallb is_simple pre = true -> sym_region w pre seg st = Some st1 ->
  (forall j, (j < length seg)%nat -> code_at code (pc + Z.of_nat j) = nth_error seg j) ->
  cosim rest (pc + Z.of_nat (length seg)) st1 pc' st' -> cosim (pre ++ rest) pc st pc' st'.
Proof.
  intros pre seg st st1 rest pc pc' st' SP H AT K A si sb R P. subst pc. unfold sym_region in H.
  pose proof (sym_ir_d pre st) as DI.
  destruct (sym_ir w pre st) as [sti evi] eqn:SI. cbn [fst] in DI. destruct (sym_bc w seg st) as [[stb evb]|] eqn:SB; [|discriminate].
  destruct (ev_eq w evi evb && (s_n sti =? s_n stb)) eqn:C; [|discriminate]. injection H as <-.
  apply andb_prop in C. destruct C as [EV NN]. apply Z.eqb_eq in NN.
  pose proof R as (RI0 & RB0 & IO & AG & NZ).
  pose proof (sym_ir_sound pre SP A st si sti evi rest RI0 SI) as HI.
  rewrite (ev_eq_sound A _ _ EV), IO in HI.
  pose proof (sym_bc_sound seg A st sb stb evb RB0 SB AT) as HB.
  destruct (io_run (map (cev A) evb) (bc_io sb)) as [io' [|]].
  - destruct HI as (si1 & E1 & I1 & R1). destruct HB as (sb1 & E2 & I2 & R2 & P2 & _ & DB & _).
    apply (cosim_steps (length pre) _ rest si si1 _ _ _ E1).
    apply (cosim_at_reach _ _ _ sb1 _ _ (reach_steps _ _ _ E2)).
    apply (K A); [|exact P2].
    (* each side's part of the relation only looks at its own cells and at [s_d], which no side changes *)
    split; [rewrite <- DI; exact R1|]. split; [rewrite <- DB, NN; exact R2|].
    split; [congruence|]. split; [exact AG|exact NZ].
  - destruct HI as (si1 & E1 & I1). destruct HB as (sb1 & E2 & I2). split.
    + apply (SimC_more_fuel (length pre)). intros f. rewrite E1. exists (length seg + 0)%nat, sb1. split; [apply E2|congruence].
    + intros g _. exists (length pre + 0)%nat, (Stopped si1). split; [apply E1|exact I].
Qed.

(** an [if]: a branch over the body, which ends at the join *)
Lemma cosim_if : forall cond shift body rest' pc1 off join pc2 pc' st1 stb stb' st',
  code_at code pc1 = Some (BrZ cond off) -> agree w st1 cond = true ->
  entails w st1 join = true -> entails w stb' join = true ->
  cosim body (pc1 + 1) (add_nz st1 (cell_b st1 cond)) pc2 stb ->
  after_move w code pc2 stb shift = Some (pc1 + off, stb') ->
  cosim rest' (pc1 + off) (st_of_facts join) pc' st' ->
  cosim (IIf cond shift body :: rest') pc1 st1 pc' st'.
Proof.
  intros cond shift body rest' pc1 off join pc2 pc' st1 stb stb' st' CB AG1 EJ1 EJ2 HBODY AM HREST A si sb R P.
  rewrite <- P in CB. apply (cosim_at_reach _ _ _ _ _ _ (reach_steps 1 _ _ (step_brz sb cond off CB))).
  rewrite <- (Rel_mem A st1 si sb cond R AG1). destruct (ir_read si cond =? 0) eqn:Z0.
  - apply (cosim_steps 1 _ rest' si si); [intros f; cbn [plus]; rewrite LimitedProofs.exec_if, Z0; reflexivity|].
    apply (HREST (anchor_of si sb)); [exact (entails_sound A st1 si sb join R EJ1)|cbn; lia].
  - assert (RE : Rel A (add_nz st1 (cell_b st1 cond)) si (next sb)).
    { apply (if_fact A st1 si sb cond R AG1). apply Z.eqb_neq. exact Z0. }
    destruct (HBODY A si (next sb) RE ltac:(cbn; lia)) as (HF & HB).
    (* the rest, from wherever the body ends *)
    assert (K : forall A2 s2 sb2, Rel A2 stb s2 sb2 -> bc_pc sb2 = pc2 -> cosim_at rest' (ir_move s2 shift) sb2 pc' st').
    { intros A2 s2 sb2 R2 P2. destruct (after_move_sound _ _ _ _ _ A2 s2 sb2 AM R2 P2) as (A3 & sb3 & RE3 & P3 & R3).
      apply (cosim_at_reach _ _ _ sb3 _ _ RE3).
      apply (HREST (anchor_of (ir_move s2 shift) sb3)); [exact (entails_sound A3 stb' _ sb3 join R3 EJ2)|congruence]. }
    split.
    + intros [|f]; [exact I|]. rewrite LimitedProofs.exec_if, Z0. specialize (HF f).
      pose proof (ir_unlimited_outcomes w e f body si) as UN.
      destruct (ir_exec w e false f body si) as [s2|s2|s2|p s2|s2]; cbn [SimC] in *; try exact I; try contradiction; [|exact HF].
      destruct HF as (A2 & sb2 & RE2 & P2 & R2). exact (SimC_reach _ _ _ _ _ RE2 (proj1 (K A2 s2 sb2 R2 P2) f)).
    + intros g BT. apply (iterm_enter _ body rest' shift); [intros f; rewrite LimitedProofs.exec_if, Z0; reflexivity|].
      destruct (iterm_body_cases body si (HB g BT)) as [S|(f & s2 & E)]; [left; exact S|right].
      exists f, s2. split; [exact E|]. specialize (HF f). rewrite E in HF. destruct HF as (A2 & sb2 & RE2 & P2 & R2).
      destruct (btermN_reach g (next sb) sb2 RE2 BT) as (g2 & _ & BT2). exact (proj2 (K A2 s2 sb2 R2 P2) g2 BT2).
Qed.

(** a loop with a certificate: entered at its head without a guard when the condition is known to
    be non-zero, or through the guard that jumps behind the back edge *)
Lemma cosim_loop : forall cond shift body rest' (once : bool) head back inv exitf pc1 b pc2 pc' st1 stb stb' st',
  code_at code pc1 = Some b ->
  (if once then nonzero_in w st1 (cell_i st1 cond) && (pc1 =? head)
   else agree w st1 cond && (head =? pc1 + 1)
        && match b with BrZ c off => (c =? cond) && (pc1 + off =? back + 1) | _ => false end) = true ->
  match code_at code back with Some (BrNZ c off) => (c =? cond) && (back + off =? head) | _ => false end = true ->
  entails w st1 inv = true -> once || entails w st1 exitf = true ->
  cosim body head (add_nz (st_of_facts inv) (e_var (if memz cond (f_d inv) then axi cond else acell cond))) pc2 stb ->
  cosim rest' (back + 1) (if once then once_exit w stb' cond else st_of_facts exitf) pc' st' ->
  once = true \/ entails w (once_exit w stb' cond) exitf = true ->
  after_move w code pc2 stb shift = Some (back, stb') ->
  agree w stb' cond = true -> entails w stb' inv = true ->
  cosim (ILoop cond shift body once :: rest') pc1 st1 pc' st'.
Proof.
  intros cond shift body rest' once head back inv exitf pc1 b pc2 pc' st1 stb stb' st'
    CB ENTRY BACK ENT1 EX1 HBODY HREST ENTX MOVE AGB ENT.
  assert (BACKI : exists off, code_at code back = Some (BrNZ cond off) /\ back + off = head).
  { destruct (code_at code back) as [[| | | | | |c off| | | |]|]; try discriminate.
    destruct (andb_prop _ _ BACK) as [->%Z.eqb_eq E%Z.eqb_eq]. exists off. split; [reflexivity|exact E]. }
  pose proof (fun f A si sb R P => proj1 (HBODY A si sb R P) f) as BODY.
  pose proof (fun g A si sb R P => proj2 (HBODY A si sb R P) g) as BODYB.
  pose proof (fun f A si sb R P => proj1 (HREST A si sb R P) f) as REST.
  pose proof (fun g A si sb R P => proj2 (HREST A si sb R P) g) as RESTB.
  assert (HEAD : forall si sb, Rel (anchor_of si sb) (st_of_facts inv) si sb -> bc_pc sb = head -> ir_read si cond <> 0 ->
            cosim_at (ILoop cond shift body once :: rest') si sb pc' st').
  { intros si sb R P NZc. split; [intros f; eapply loop_sound|intros g; eapply loop_back]; eassumption. }
  intros A si sb R P. pose proof (entails_sound A st1 si sb inv R ENT1) as RA. destruct once.
  - destruct (andb_prop _ _ ENTRY) as [NZ1 E%Z.eqb_eq]. apply (HEAD si sb RA); [congruence|].
    rewrite (RI_read A st1 si cond (proj1 R)). exact (nonzero_in_sound A st1 si sb _ R NZ1).
  - destruct (andb_prop _ _ ENTRY) as [[AG1 E%Z.eqb_eq]%andb_prop BZ].
    destruct b as [| | | | |c off| | | | |]; try discriminate.
    destruct (andb_prop _ _ BZ) as [->%Z.eqb_eq EX%Z.eqb_eq]. rewrite <- P in CB.
    apply (cosim_at_reach _ _ _ _ _ _ (reach_steps 1 _ _ (step_brz sb cond off CB))).
    rewrite <- (Rel_mem A st1 si sb cond R AG1). destruct (ir_read si cond =? 0) eqn:Z0.
    + apply (cosim_steps 1 _ rest' si si); [intros f; cbn [plus]; rewrite LimitedProofs.exec_loop, Z0; reflexivity|].
      apply (HREST (anchor_of si sb)); [exact (entails_sound A st1 si sb exitf R EX1)|cbn; lia].
    + apply (HEAD si (next sb) RA); [cbn; lia|apply Z.eqb_neq; exact Z0].
Qed.

Lemma cosim_scan : forall cond shift rest' once pc1 pc' st1 st',
  code_at code pc1 = Some (Scan cond shift) -> agree w st1 cond = true -> (shift =? 0) || all_agree w st1 = true ->
  cosim rest' (pc1 + 1) (if shift =? 0 then st1 else moved w st1 shift) pc' st' ->
  cosim (ILoop cond shift [] once :: rest') pc1 st1 pc' st'.
Proof.
  intros cond shift rest' once pc1 pc' st1 st' CAS AGC ALL K A si sb R P.
  pose proof (fun f A si sb R P => proj1 (K A si sb R P) f) as REST.
  pose proof (fun g A si sb R P => proj2 (K A si sb R P) g) as RESTB.
  destruct (Z.eq_dec shift 0) as [S0|SNZ].
  - split; [intros f; eapply scan0_sound|intros g; eapply scan0_back]; eassumption.
  - apply orb_prop in ALL. destruct ALL as [E|ALL]; [apply Z.eqb_eq in E; contradiction|].
    pose proof (scan_start shift st1 ALL A si sb R) as R0. split.
    + intros f. eapply scanN_sound; eassumption.
    + intros [|g] (o & E & T); [cbn in E; subst o; contradiction|].
      rewrite <- P in CAS. rewrite (step_scan sb _ _ CAS) in E.
      destruct (bc_scan (S g) cond shift sb) as [s'|] eqn:SC; [|subst o; contradiction].
      apply (scanN_back cond shift rest' once pc1 st1 RESTB ALL SNZ (S g) _ si sb s' R0 P SC);
        [intros g0 H0; exists g0; exact H0|exists g, o; split; assumption].
Qed.

Lemma is_nil_spec : forall (X : Type) (l : list X), is_nil l = true -> l = [].
Proof. intros X [|x l] H; [reflexivity|discriminate]. Qed.

Lemma if_then_some : forall (X : Type) (c : bool) (x : option X) y, (if c then x else None) = Some y -> c = true /\ x = Some y.
Proof. intros X [|] x y H; [split; [reflexivity|exact H]|discriminate]. Qed.

(** The main induction, on the checker's fuel.  The simple prefix and its bytecode segment are a
    region ([cosim_region]); then the block ends, or a fused scan, a loop with a certificate or an
    [if] follows, each with the induction hypothesis for its body and for the rest.  The range
    tests of [tv_block] ([pc1 <? stop], [back + 1 <=? stop], [head <=? back], [0 <=? pc1],
    [pc1 + 1 <=? exit], [exit <=? stop]) are dropped ([_]): they keep the checker's segments
    inside the code it was asked about, and soundness does not need them. *)
Lemma tv_block_both : forall n fuse insts pc stop st cs pc' st' cs',
  tv_block n w fuse code insts pc stop st cs = Some (pc', st', cs') -> cosim insts pc st pc' st'.
Proof.
  induction n as [|n IH]; intros fuse insts pc stop st cs pc' st' cs' H; [discriminate|].
  cbn [tv_block] in H.
  destruct (split_simple insts) as [pre rest] eqn:SS. destruct (split_simple_spec _ _ _ SS) as (-> & SP).
  remember (bc_segment code pc stop (next_head fuse rest cs)) as seg eqn:SEG.
  destruct (sym_region w pre seg st) as [st1|] eqn:SR; [|discriminate].
  apply (cosim_region pre seg st st1 rest pc pc' st' SP SR); [intros j J; subst seg; apply segment_at; exact J|].
  remember (pc + Z.of_nat (length seg)) as pc1 eqn:PC1. clear SR SEG PC1.
  destruct rest as [|[src|dst|calcs|cond shift body once|cond shift body] rest']; try discriminate.
  - injection H as <- <- <-. apply cosim_nil.
  - (* loop *)
    destruct (code_at code pc1) as [b|] eqn:CB; [|discriminate].
    destruct (fuse && is_nil body) eqn:FN.
    + (* fused scan *)
      apply andb_prop in FN. destruct FN as [_ NB]. apply is_nil_spec in NB. subst body.
      destruct b as [|c sh| | | | | | | | |]; try discriminate.
      apply if_then_some in H. destruct H as (CK & H).
      apply andb_prop in CK as [CK ALL]. apply andb_prop in CK as [CK AGC]. apply andb_prop in CK as [CK _].
      apply andb_prop in CK as [->%Z.eqb_eq ->%Z.eqb_eq].
      apply (cosim_scan cond shift rest' once pc1 pc' st1 st' CB AGC ALL). exact (IH _ _ _ _ _ _ _ _ _ H).
    + (* loop with a certificate *)
      destruct cs as [|[head back inv exitf|?] cs1]; try discriminate.
      apply if_then_some in H. destruct H as (CK & H).
      destruct (tv_block n w fuse code body head back _ cs1) as [[[pc2 stb] cs2]|] eqn:TB; [|discriminate].
      destruct (after_move w code pc2 stb shift) as [[pc3 stb']|] eqn:AM; [|discriminate].
      apply if_then_some in H. destruct H as (CK2 & H).
      apply andb_prop in CK as [CK EX1]. apply andb_prop in CK as [CK ENT1].
      apply andb_prop in CK as [CK _]. apply andb_prop in CK as [CK _]. apply andb_prop in CK as [CK _].
      apply andb_prop in CK as [ENTRY BACK].
      apply andb_prop in CK2 as [CK2 ENTX%orb_prop]. apply andb_prop in CK2 as [CK2 ENT].
      apply andb_prop in CK2 as [->%Z.eqb_eq AGB].
      exact (cosim_loop cond shift body rest' once head back inv exitf pc1 b pc2 pc' st1 stb stb' st' CB ENTRY BACK ENT1 EX1
               (IH _ _ _ _ _ _ _ _ _ TB) (IH _ _ _ _ _ _ _ _ _ H) ENTX AM AGB ENT).
  - (* if *)
    destruct (code_at code pc1) as [[| | | | |c off| | | | |]|] eqn:CB; try discriminate.
    destruct cs as [|[?|join] cs1]; try discriminate.
    apply if_then_some in H. destruct H as (CK & H).
    destruct (tv_block n w fuse code body (pc1 + 1) (pc1 + off) _ cs1) as [[[pc2 stb] cs2]|] eqn:TB; [|discriminate].
    destruct (after_move w code pc2 stb shift) as [[pc3 stb']|] eqn:AM; [|discriminate].
    apply if_then_some in H. destruct H as (CK2 & H).
    apply andb_prop in CK as [CK _]. apply andb_prop in CK as [CK _]. apply andb_prop in CK as [CK _].
    apply andb_prop in CK as [->%Z.eqb_eq AG1].
    apply andb_prop in CK2 as [CK2 EJ2]. apply andb_prop in CK2 as [->%Z.eqb_eq EJ1].
    exact (cosim_if cond shift body rest' pc1 off join pc2 pc' st1 stb stb' st' CB AG1 EJ1 EJ2
             (IH _ _ _ _ _ _ _ _ _ TB) AM (IH _ _ _ _ _ _ _ _ _ H)).
Qed.

Lemma tv_block_sound : forall n fuse insts pc stop st cs pc' st' cs',
  tv_block n w fuse code insts pc stop st cs = Some (pc', st', cs') -> 0 <= pc ->
  forall f A si sb, Rel A st si sb -> bc_pc sb = pc -> SimC (ir_exec w e false f insts si) sb pc' st'.
Proof. intros n fuse insts pc stop st cs pc' st' cs' H _ f A si sb R P. exact (proj1 (tv_block_both _ _ _ _ _ _ _ _ _ _ H A si sb R P) f). Qed.

Lemma tv_block_back : forall n fuse insts pc stop st cs pc' st' cs',
  tv_block n w fuse code insts pc stop st cs = Some (pc', st', cs') -> 0 <= pc ->
  forall g A si sb, Rel A st si sb -> bc_pc sb = pc -> btermN g sb -> iterm insts si.
Proof. intros n fuse insts pc stop st cs pc' st' cs' H _ g A si sb R P. exact (proj2 (tv_block_both _ _ _ _ _ _ _ _ _ _ H A si sb R P) g). Qed.

Lemma look_zeros : forall k zs p, look k (map (fun k => (k, [])) zs) = Some p -> p = [].
Proof.
  intros k zs p. induction zs as [|z zs IH]; cbn [map look]; [discriminate|].
  destruct (z =? k); [intros H; injection H as <-; reflexivity|exact IH].
Qed.

Lemma rel_init : forall b zs, Rel (anchor_of (ir0 b) (bc0 b)) (st0 zs) (ir0 b) (bc0 b).
Proof.
  intros b zs. apply Rel_anchor; try reflexivity; cbn [ir0 bc0 ir_tape bc_tape st0 s_ci s_cb s_t s_nz].
  - intros k. rewrite MachineProofs.tget_empty. reflexivity.
  - intros k. rewrite MachineProofs.tget_empty. reflexivity.
  - intros k q L. rewrite (look_zeros _ _ _ L). apply MachineProofs.tget_empty.
  - intros k q L. rewrite (look_zeros _ _ _ L). apply MachineProofs.tget_empty.
  - discriminate.
  - intros q [].
Qed.

(** what an accepted pair of programs gives from the initial states; the bytecode ends at [pc'] or
    after one final move *)
Lemma tv_check_both : forall fuse ir zs cs b, tv_check w fuse ir code zs cs = true ->
  exists pc' st', cosim_at (snd ir) (ir0 b) (bc0 b) pc' st' /\
    forall s, bc_pc s = pc' -> exists n s', bexec n s = Done s' /\ bc_io s' = bc_io s.
Proof.
  intros fuse ir zs cs b H. unfold tv_check in H. apply andb_prop in H. destruct H as [_ H].
  destruct (tv_block (S (isize (snd ir))) w fuse code (snd ir) 0 len (st0 zs) cs) as [[[pc' st'] cs']|] eqn:TB; [|discriminate].
  destruct cs'; [|discriminate]. exists pc', st'.
  split; [exact (tv_block_both _ _ _ _ _ _ _ _ _ _ TB _ (ir0 b) (bc0 b) (rel_init b zs) eq_refl)|].
  intros s P. apply orb_prop in H. destruct H as [H|H].
  - apply Z.eqb_eq in H. exists 1%nat, s. split; [|reflexivity]. cbn [bc_exec]. rewrite P, H, Z.eqb_refl. reflexivity.
  - apply andb_prop in H. destruct H as [H1 H2]. apply Z.eqb_eq in H1.
    destruct (code_at code pc') as [[| |sh| | | | | | | |]|] eqn:CA; try discriminate.
    rewrite <- P in CA. exists 2%nat, (next (bc_move s sh)). split; [|reflexivity].
    rewrite (bexec_S 1 s _ CA). cbn [bc_eff bc_goto bc_exec next bc_set_pc bc_pc bc_move]. rewrite P, H1, Z.eqb_refl. reflexivity.
Qed.

Lemma bexec_det : forall g1 g2 s o1 o2, bexec g1 s = o1 -> bterminal o1 -> bexec g2 s = o2 -> bterminal o2 -> o1 = o2.
Proof.
  intros g1 g2 s o1 o2 E1 T1 E2 T2.
  rewrite <- (bexec_mono g1 s o1 E1 T1 (g1 + g2)%nat ltac:(lia)). rewrite <- (bexec_mono g2 s o2 E2 T2 (g1 + g2)%nat ltac:(lia)). reflexivity.
Qed.

(** an IR run that ends is matched by a bytecode run; a bytecode run that ends forces the IR run to
    end, and the match of that IR run is the same bytecode run *)
Theorem tv_check_ends : forall fuse ir zs cs b, tv_check w fuse ir code zs cs = true ->
  (forall f, match ir_exec w e false f (snd ir) (ir0 b) with
             | Done si => exists g sb, bexec g (bc0 b) = Done sb /\ bc_io sb = ir_io si
             | Stopped si => exists g sb, bexec g (bc0 b) = Stopped sb /\ bc_io sb = ir_io si
             | _ => True
             end) /\
  (forall g, match bexec g (bc0 b) with
             | Done sb => exists f si, ir_exec w e false f (snd ir) (ir0 b) = Done si /\ ir_io si = bc_io sb
             | Stopped sb => exists f si, ir_exec w e false f (snd ir) (ir0 b) = Stopped si /\ ir_io si = bc_io sb
             | _ => True
             end).
Proof.
  intros fuse ir zs cs b H. destruct (tv_check_both fuse ir zs cs b H) as (pc' & st' & (FW & BW) & FIN).
  (* the first half serves the second *)
  refine ((fun F => conj F _) _).
  - intros g. destruct (bexec g (bc0 b)) as [sb|sb|sb|p sb|sb] eqn:E; try exact I.
    (* the IR run ends; its match is a bytecode run that ends, hence this one *)
    all: destruct (BW g (ex_intro _ _ (conj E I))) as (f & oi & EI & TI).
    all: specialize (F f); rewrite EI in F.
    all: destruct oi as [si|si|si|p si|si]; try contradiction; destruct F as (g2 & sb2 & E2 & IO).
    all: pose proof (bexec_det g g2 _ _ _ E I E2 I) as D; try discriminate D; injection D as <-.
    all: exists f, si; (split; [exact EI|symmetry; exact IO]).
  - intros f. specialize (FW f).
    destruct (ir_exec w e false f (snd ir) (ir0 b)) as [si|si|si|p si|si]; try exact I; cbn [SimC] in FW; [|exact FW].
    destruct FW as (A' & sb' & ((n & RE) & _) & P & (_ & _ & IO & _)). destruct (FIN sb' P) as (m & s' & ED & EI).
    exists (n + m)%nat, s'. split; [exact (RE m _ ED I)|congruence].
Qed.
End Sim.

Lemma tv_check_width : forall w fuse ir code zs cs, tv_check w fuse ir code zs cs = true -> 0 <= w.
Proof. intros w fuse ir code zs cs H. unfold tv_check in H. apply andb_prop in H. apply Z.leb_le. exact (proj1 H). Qed.

Theorem tv_sound : forall w fuse ir (p : bprog) zs cs e budget, tv_check w fuse ir (bp_code p) zs cs = true ->
  forall fuel si',
  (ir_run w e false budget fuel ir = Done si' ->
     exists fuel' sb', bc_run w e false budget fuel' p = Done sb' /\ bc_io sb' = ir_io si') /\
  (ir_run w e false budget fuel ir = Stopped si' ->
     exists fuel' sb', bc_run w e false budget fuel' p = Stopped sb' /\ bc_io sb' = ir_io si').
Proof.
  intros w fuse ir p zs cs e budget H fuel si'.
  pose proof (tv_check_width _ _ _ _ _ _ H) as Hw.
  unfold ir_run, bc_run. cbn [andb].
  destruct (tv_check_ends w Hw e (bp_code p) (fetch_of p) (fetch_instr_at p) fuse ir zs cs budget H) as (F & _).
  specialize (F fuel). split; intros E; rewrite E in F; exact F.
Qed.

(** conversely: a bytecode run that ends is matched by an IR run that ends the same way, so on an
    accepted pair the two runs end together or diverge together *)
Theorem tv_sound_back : forall w fuse ir (p : bprog) zs cs e budget, tv_check w fuse ir (bp_code p) zs cs = true ->
  forall fuel sb',
  (bc_run w e false budget fuel p = Done sb' ->
     exists fuel' si', ir_run w e false budget fuel' ir = Done si' /\ ir_io si' = bc_io sb') /\
  (bc_run w e false budget fuel p = Stopped sb' ->
     exists fuel' si', ir_run w e false budget fuel' ir = Stopped si' /\ ir_io si' = bc_io sb').
Proof.
  intros w fuse ir p zs cs e budget H fuel sb'.
  pose proof (tv_check_width _ _ _ _ _ _ H) as Hw.
  unfold ir_run, bc_run. cbn [andb].
  destruct (tv_check_ends w Hw e (bp_code p) (fetch_of p) (fetch_instr_at p) fuse ir zs cs budget H) as (_ & B).
  specialize (B fuel). split; intros E; rewrite E in B; exact B.
Qed.
